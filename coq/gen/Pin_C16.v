(* written by tools/pin_sources.py *)
From Coq Require Import List String Bool.
From UsimGen Require Import Generated SourcePins PinCheck.
Import ListNotations. Open Scope string_scope.
Definition pins : list string := ["usim/_concurrent/basics.py:_first_monitor";
  "usim/_concurrent/basics.py:first";
  "usim/_concurrent/basics.py:collect";
  "usim/_concurrent/basics.py:<module>";
  "usim/_basics/streams.py:Queue.closed";
  "usim/_basics/streams.py:Queue.__init__";
  "usim/_basics/streams.py:Queue.close";
  "usim/_basics/streams.py:Queue.__await__";
  "usim/_basics/streams.py:Queue._await_message";
  "usim/_basics/streams.py:Queue.__aiter__";
  "usim/_basics/streams.py:Queue.put";
  "usim/_basics/streams.py:Queue.__repr__";
  "usim/_primitives/context.py:CancelScope.__init__";
  "usim/_primitives/context.py:ScopeClosed.__init__";
  "usim/_primitives/context.py:Scope.__init__";
  "usim/_primitives/context.py:Scope.__await__";
  "usim/_primitives/context.py:Scope.do";
  "usim/_primitives/context.py:Scope.__cancel__";
  "usim/_primitives/context.py:Scope.__child_finished__";
  "usim/_primitives/context.py:Scope._disable_interrupts";
  "usim/_primitives/context.py:Scope._await_children";
  "usim/_primitives/context.py:Scope._close_children";
  "usim/_primitives/context.py:Scope._close_volatile";
  "usim/_primitives/context.py:Scope.__aenter__";
  "usim/_primitives/context.py:Scope.__aexit__";
  "usim/_primitives/context.py:Scope._close_scope";
  "usim/_primitives/context.py:Scope._collect_exceptions";
  "usim/_primitives/context.py:Scope._propagate_exceptions";
  "usim/_primitives/context.py:Scope._is_suppressed";
  "usim/_primitives/context.py:Scope.__repr__";
  "usim/_primitives/context.py:InterruptScope.__init__";
  "usim/_primitives/context.py:InterruptScope.__aenter__";
  "usim/_primitives/context.py:InterruptScope._disable_interrupts";
  "usim/_primitives/context.py:InterruptScope._is_suppressed";
  "usim/_primitives/context.py:InterruptScope.__repr__";
  "usim/_primitives/context.py:until";
  "usim/_primitives/context.py:<module>";
  "usim/_primitives/context.py:CancelScope.<attrs>";
  "usim/_primitives/context.py:ScopeClosed.<attrs>";
  "usim/_primitives/context.py:Scope.<attrs>";
  "usim/_primitives/context.py:InterruptScope.<attrs>";
  "usim/_basics/streams.py:<module>";
  "usim/_basics/streams.py:Channel.__init__"].
(** the functions the model of C16 was transcribed from are unchanged in /repo *)
Lemma src_unchanged : forallb pin_ok pins = true.
Proof. apply pins_ok_by_trie. vm_compute. reflexivity. Qed.
