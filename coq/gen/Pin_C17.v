(* written by tools/pin_sources.py *)
From Coq Require Import List String Bool.
From UsimGen Require Import Generated SourcePins PinCheck.
Import ListNotations. Open Scope string_scope.
Definition pins : list string := ["usim/_primitives/concurrent_exception.py:MetaConcurrent.__new__";
  "usim/_primitives/concurrent_exception.py:MetaConcurrent.__instancecheck__";
  "usim/_primitives/concurrent_exception.py:MetaConcurrent.__subclasscheck__";
  "usim/_primitives/concurrent_exception.py:MetaConcurrent._subclasscheck_specialisation";
  "usim/_primitives/concurrent_exception.py:MetaConcurrent.__getitem__";
  "usim/_primitives/concurrent_exception.py:MetaConcurrent._get_specialisation";
  "usim/_primitives/concurrent_exception.py:MetaConcurrent.__repr__";
  "usim/_primitives/concurrent_exception.py:Concurrent.__new__";
  "usim/_primitives/concurrent_exception.py:Concurrent.__init__";
  "usim/_primitives/concurrent_exception.py:Concurrent.__str__";
  "usim/_primitives/concurrent_exception.py:Concurrent.__repr__";
  "usim/_primitives/concurrent_exception.py:Concurrent.flattened";
  "usim/_primitives/concurrent_exception.py:<module>";
  "usim/_primitives/concurrent_exception.py:MetaConcurrent.<attrs>";
  "usim/_primitives/concurrent_exception.py:Concurrent.<attrs>"].
(** the functions the model of C17 was transcribed from are unchanged in /repo *)
Lemma src_unchanged : forallb pin_ok pins = true.
Proof. apply pins_ok_by_trie. vm_compute. reflexivity. Qed.
