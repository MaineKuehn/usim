(** [pin_ok] looks a key up in two association lists of some 600 keys by [String.eqb]: about 10^5 string comparisons per
    property, and coqchk makes them with the kernel's ordinary reduction.  Here the two lists are turned once into one
    binary trie over the bits of the keys, marked with the verdict of [pin_ok]; a pin is then decided by one descent. *)
From Coq Require Import List String Ascii Bool.
From UsimGen Require Import Generated SourcePins.
Import ListNotations.

Inductive trie (A : Type) := Leaf | Node (v : option A) (t0 t1 : trie A).
Arguments Leaf {A}.
Arguments Node {A}.

Fixpoint bits (s : string) : list bool :=
  match s with
  | EmptyString => []
  | String (Ascii a b c d e f g h) r => a :: b :: c :: d :: e :: f :: g :: h :: bits r
  end.

Fixpoint find {A} (k : list bool) (t : trie A) : option A :=
  match t, k with
  | Leaf, _ => None
  | Node v _ _, [] => v
  | Node _ t0 t1, b :: k' => find k' (if b then t1 else t0)
  end.

(** [find (bits s)] without the intermediate list *)
Definition below {A} (b : bool) (t : trie A) : trie A :=
  match t with Leaf => Leaf | Node _ t0 t1 => if b then t1 else t0 end.

Fixpoint finds {A} (s : string) (t : trie A) : option A :=
  match s with
  | EmptyString => match t with Leaf => None | Node v _ _ => v end
  | String (Ascii a b c d e f g h) r =>
      finds r (below h (below g (below f (below e (below d (below c (below b (below a t))))))))
  end.

Fixpoint add {A} (k : list bool) (x : A) (t : trie A) : trie A :=
  match k, t with
  | [], Leaf => Node (Some x) Leaf Leaf
  | [], Node _ t0 t1 => Node (Some x) t0 t1
  | true :: k', Leaf => Node None Leaf (add k' x Leaf)
  | false :: k', Leaf => Node None (add k' x Leaf) Leaf
  | true :: k', Node v t0 t1 => Node v t0 (add k' x t1)
  | false :: k', Node v t0 t1 => Node v (add k' x t0) t1
  end.

(** the head of the list is added last, so that the first entry of a key wins, as in [src_lookup] *)
Definition build (l : list (string * string)) : trie string :=
  fold_right (fun e t => add (bits (fst e)) (snd e) t) Leaf l.

Fixpoint agree (tg tm : trie string) : trie bool :=
  match tg, tm with
  | Node a g0 g1, Node b m0 m1 =>
      Node (match a, b with Some a, Some b => Some (String.eqb a b) | _, _ => None end) (agree g0 m0) (agree g1 m1)
  | _, _ => Leaf
  end.

Lemma find_leaf {A} k : find k (@Leaf A) = None.
Proof. now destruct k. Qed.

Lemma find_cons {A} b k (t : trie A) : find (b :: k) t = find k (below b t).
Proof. destruct t; cbn [below]; [now rewrite !find_leaf | reflexivity]. Qed.

Lemma finds_find {A} s : forall t : trie A, finds s t = find (bits s) t.
Proof.
  induction s as [|[a b c d e f g h] s IH]; intros t; cbn [finds bits].
  - now destruct t.
  - now rewrite IH, !find_cons.
Qed.

Lemma find_add {A} k (x : A) : forall t k', find k' (add k x t) = if list_eq_dec bool_dec k k' then Some x else find k' t.
Proof.
  induction k as [|b k IH]; intros t k'.
  - destruct t, k' as [|[] k']; cbn; now rewrite ?find_leaf.
  - destruct t as [|v t0 t1], b, k' as [|[] k']; cbn [add find]; rewrite ?IH, ?find_leaf;
      repeat (destruct list_eq_dec; try congruence).
Qed.

Lemma bits_inj s : forall s', bits s = bits s' -> s = s'.
Proof.
  induction s as [|[] s IH]; intros [|[] s']; cbn; try discriminate; auto.
  intros H. injection H as -> -> -> -> -> -> -> -> H. f_equal. auto.
Qed.

Lemma find_build k l : find (bits k) (build l) = src_lookup k l.
Proof.
  induction l as [|[k' v] l IH]; [apply find_leaf|].
  change (build ((k', v) :: l)) with (add (bits k') v (build l)). cbn [src_lookup]. rewrite find_add, IH.
  destruct list_eq_dec as [E|N], (String.eqb_spec k k') as [->|N']; try reflexivity.
  - apply bits_inj in E. congruence.
  - congruence.
Qed.

Lemma find_agree tg : forall tm k,
  find k (agree tg tm) = match find k tg, find k tm with Some a, Some b => Some (String.eqb a b) | _, _ => None end.
Proof.
  induction tg as [|a g0 IH0 g1 IH1]; intros [|b m0 m1] k; cbn [agree]; rewrite ?find_leaf; auto.
  - now destruct (find k _).
  - destruct k as [|[] k]; cbn [find]; auto.
Qed.

Definition verdicts : trie bool := Eval vm_compute in agree (build gen_src) (build model_src).

(* given as a term with its cast, so that the two tries are evaluated once: a script with [vm_compute] evaluates them
   at the tactic and again at [Qed] *)
Definition verdicts_eq : verdicts = agree (build gen_src) (build model_src) :=
  @eq_refl _ verdicts <: verdicts = agree (build gen_src) (build model_src).

Lemma pin_ok_find k : pin_ok k = match finds k verdicts with Some b => b | None => false end.
Proof.
  rewrite finds_find, verdicts_eq, find_agree, !find_build. unfold pin_ok.
  destruct (src_lookup k gen_src), (src_lookup k model_src); reflexivity.
Qed.

Lemma pins_ok_by_trie ps :
  forallb (fun k => match finds k verdicts with Some b => b | None => false end) ps = true -> forallb pin_ok ps = true.
Proof. rewrite !forallb_forall. intros H k Hk. rewrite pin_ok_find. auto. Qed.
