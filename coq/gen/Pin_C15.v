(* written by tools/pin_sources.py *)
From Coq Require Import List String Bool.
From UsimGen Require Import Generated SourcePins PinCheck.
Import ListNotations. Open Scope string_scope.
Definition pins : list string := ["usim/__init__.py:run";
  "usim/_core/loop.py:ActivityLeak.__init__";
  "usim/_core/loop.py:Hibernate.__await__";
  "usim/_core/loop.py:Loop.__init__";
  "usim/_core/loop.py:Loop.__repr__";
  "usim/_core/loop.py:Loop.run";
  "usim/_core/loop.py:Loop._run_events";
  "usim/_core/loop.py:Loop._run_coroutine";
  "usim/_core/loop.py:Loop.schedule";
  "usim/_core/loop.py:Interrupt.__init__";
  "usim/_core/loop.py:Interrupt.__bool__";
  "usim/_core/loop.py:Interrupt.revoke";
  "usim/_core/loop.py:Interrupt.__repr__";
  "usim/_core/loop.py:Activation.__init__";
  "usim/_core/loop.py:Activation.__bool__";
  "usim/_core/loop.py:Activation.__repr__";
  "usim/_core/loop.py:<module>";
  "usim/_core/loop.py:Hibernate.<attrs>";
  "usim/_core/loop.py:Loop.<attrs>";
  "usim/_core/loop.py:Interrupt.<attrs>";
  "usim/_core/loop.py:Activation.<attrs>";
  "usim/_core/handler.py:MissingLoop.__init__";
  "usim/_core/handler.py:MissingLoop.__getattr__";
  "usim/_core/handler.py:MissingLoop.__repr__";
  "usim/_core/handler.py:StateHandler.is_active";
  "usim/_core/handler.py:StateHandler.__init__";
  "usim/_core/handler.py:StateHandler.assign";
  "usim/_core/handler.py:<module>";
  "usim/_core/handler.py:AbstractLoop.<attrs>";
  "usim/_core/handler.py:MissingLoop.<attrs>";
  "usim/_core/handler.py:StateHandler.<attrs>";
  "usim/__init__.py:<module>"].
(** the functions the model of C15 was transcribed from are unchanged in /repo *)
Lemma src_unchanged : forallb pin_ok pins = true.
Proof. apply pins_ok_by_trie. vm_compute. reflexivity. Qed.
