(* written by tools/pin_sources.py *)
From Coq Require Import List String Bool.
From UsimGen Require Import Generated SourcePins PinCheck.
Import ListNotations. Open Scope string_scope.
Definition pins : list string := ["usim/_basics/resource.py:ResourcesUnavailable.__init__";
  "usim/_basics/resource.py:BaseResources.levels";
  "usim/_basics/resource.py:BaseResources.resource_type";
  "usim/_basics/resource.py:BaseResources.__insert_resources__";
  "usim/_basics/resource.py:BaseResources.__remove_resources__";
  "usim/_basics/resource.py:BaseResources.borrow";
  "usim/_basics/resource.py:BaseResources.claim";
  "usim/_basics/resource.py:BaseResources.__repr__";
  "usim/_basics/resource.py:BaseResources.__eq__";
  "usim/_basics/resource.py:BaseResources.__ne__";
  "usim/_basics/resource.py:BaseResources.__gt__";
  "usim/_basics/resource.py:BaseResources.__ge__";
  "usim/_basics/resource.py:BaseResources.__le__";
  "usim/_basics/resource.py:BaseResources.__lt__";
  "usim/_basics/resource.py:BorrowedResources._levels_type";
  "usim/_basics/resource.py:BorrowedResources.limits";
  "usim/_basics/resource.py:BorrowedResources.__init__";
  "usim/_basics/resource.py:BorrowedResources.__aenter__";
  "usim/_basics/resource.py:BorrowedResources.__aexit__";
  "usim/_basics/resource.py:BorrowedResources.__release_nowait__";
  "usim/_basics/resource.py:BorrowedResources.borrow";
  "usim/_basics/resource.py:ClaimedResources.__aenter__";
  "usim/_basics/resource.py:Capacities.__init__";
  "usim/_basics/resource.py:Resources.__init__";
  "usim/_basics/resource.py:Resources.set";
  "usim/_basics/resource.py:Resources.increase";
  "usim/_basics/resource.py:Resources.decrease";
  "usim/_basics/resource.py:<module>";
  "usim/_basics/resource.py:ResourcesUnavailable.<attrs>";
  "usim/_basics/resource.py:BaseResources.<attrs>";
  "usim/_basics/_resource_level.py:ResourceLevels.__init__";
  "usim/_basics/_resource_level.py:ResourceLevels.__add__";
  "usim/_basics/_resource_level.py:ResourceLevels.__sub__";
  "usim/_basics/_resource_level.py:ResourceLevels.__gt__";
  "usim/_basics/_resource_level.py:ResourceLevels.__ge__";
  "usim/_basics/_resource_level.py:ResourceLevels.__le__";
  "usim/_basics/_resource_level.py:ResourceLevels.__lt__";
  "usim/_basics/_resource_level.py:ResourceLevels.__eq__";
  "usim/_basics/_resource_level.py:ResourceLevels.__ne__";
  "usim/_basics/_resource_level.py:ResourceLevels.__iter__";
  "usim/_basics/_resource_level.py:ResourceLevels.__repr__";
  "usim/_basics/_resource_level.py:__specialise__";
  "usim/_basics/_resource_level.py:__make_init__";
  "usim/_basics/_resource_level.py:__binary_op__";
  "usim/_basics/_resource_level.py:__comparison_op__";
  "usim/_basics/_resource_level.py:<module>";
  "usim/_basics/_resource_level.py:ResourceLevels.<attrs>";
  "usim/_basics/_resource_level.py:SpecialisedResourceLevels.<attrs>";
  "usim/_basics/tracked.py:Tracked.set";
  "usim/_basics/tracked.py:AsyncComparison.__bool__";
  "usim/_basics/tracked.py:AsyncComparison.__invert__";
  "usim/_basics/tracked.py:AsyncComparison.__init__";
  "usim/_basics/tracked.py:AsyncComparison.__on_changed__";
  "usim/_basics/tracked.py:AsyncComparison.__str__";
  "usim/_basics/tracked.py:AsyncComparison.__repr__";
  "usim/_basics/tracked.py:AsyncComparison.<attrs>";
  "usim/_basics/tracked.py:<module>";
  "usim/_basics/tracked.py:Tracked.<attrs>";
  "usim/_basics/tracked.py:Tracked.__add_listener__";
  "usim/_basics/tracked.py:Tracked.__ge__";
  "usim/_basics/tracked.py:Tracked.__init__";
  "usim/_basics/tracked.py:Tracked.value"].
(** the functions the model of C12 was transcribed from are unchanged in /repo *)
Lemma src_unchanged : forallb pin_ok pins = true.
Proof. apply pins_ok_by_trie. vm_compute. reflexivity. Qed.
