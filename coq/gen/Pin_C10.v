(* written by tools/pin_sources.py *)
From Coq Require Import List String Bool.
From UsimGen Require Import Generated SourcePins PinCheck.
Import ListNotations. Open Scope string_scope.
Definition pins : list string := ["usim/_basics/streams.py:Queue.closed";
  "usim/_basics/streams.py:Queue.__init__";
  "usim/_basics/streams.py:Queue.close";
  "usim/_basics/streams.py:Queue.__await__";
  "usim/_basics/streams.py:Queue._await_message";
  "usim/_basics/streams.py:Queue.__aiter__";
  "usim/_basics/streams.py:Queue.put";
  "usim/_basics/streams.py:Queue.__repr__";
  "usim/_basics/streams.py:StreamClosed.__init__";
  "usim/_primitives/locks.py:Lock.__init__";
  "usim/_primitives/locks.py:Lock.available";
  "usim/_primitives/locks.py:Lock.__aenter__";
  "usim/_primitives/locks.py:Lock.__aexit__";
  "usim/_primitives/locks.py:Lock.__release__";
  "usim/_primitives/locks.py:Lock.__repr__";
  "usim/_primitives/locks.py:<module>";
  "usim/_primitives/locks.py:Lock.<attrs>";
  "usim/_primitives/notification.py:postpone";
  "usim/_primitives/notification.py:suspend";
  "usim/_primitives/notification.py:Notification.__init__";
  "usim/_primitives/notification.py:Notification.__await__";
  "usim/_primitives/notification.py:Notification.__awake_next__";
  "usim/_primitives/notification.py:Notification.__awake_all__";
  "usim/_primitives/notification.py:Notification.__subscribe__";
  "usim/_primitives/notification.py:Notification.__unsubscribe__";
  "usim/_primitives/notification.py:Notification.__subscription__";
  "usim/_primitives/notification.py:Notification.__del__";
  "usim/_primitives/notification.py:Notification.__repr__";
  "usim/_primitives/notification.py:<module>";
  "usim/_primitives/notification.py:Notification.<attrs>";
  "usim/_basics/streams.py:<module>";
  "usim/_basics/streams.py:Channel.__init__"].
(** the functions the model of C10 was transcribed from are unchanged in /repo *)
Lemma src_unchanged : forallb pin_ok pins = true.
Proof. apply pins_ok_by_trie. vm_compute. reflexivity. Qed.
