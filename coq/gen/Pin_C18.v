(* written by tools/pin_sources.py *)
From Coq Require Import List String Bool.
From UsimGen Require Import Generated SourcePins PinCheck.
Import ListNotations. Open Scope string_scope.
Definition pins : list string := ["usim/py/events.py:Event.__init__";
  "usim/py/events.py:Event.__or__";
  "usim/py/events.py:Event.__and__";
  "usim/py/events.py:Event.__await__";
  "usim/py/events.py:Event._invoke_callbacks";
  "usim/py/events.py:Event.__usimpy_schedule__";
  "usim/py/events.py:Event._trigger";
  "usim/py/events.py:Event.triggered";
  "usim/py/events.py:Event.processed";
  "usim/py/events.py:Event.ok";
  "usim/py/events.py:Event.value";
  "usim/py/events.py:Event.trigger";
  "usim/py/events.py:Event.succeed";
  "usim/py/events.py:Event.fail";
  "usim/py/events.py:Timeout.__init__";
  "usim/py/events.py:Timeout._trigger_timeout";
  "usim/py/events.py:Timeout.__repr__";
  "usim/py/events.py:Initialize.__init__";
  "usim/py/events.py:InterruptQueue.__init__";
  "usim/py/events.py:InterruptQueue.__bool__";
  "usim/py/events.py:InterruptQueue.value";
  "usim/py/events.py:InterruptQueue.push";
  "usim/py/events.py:InterruptQueue.pop";
  "usim/py/events.py:Process.__init__";
  "usim/py/events.py:Process.interrupt";
  "usim/py/events.py:Process._run_payload";
  "usim/py/events.py:Process._wait_interruptible";
  "usim/py/events.py:Process.is_alive";
  "usim/py/events.py:Process.__repr__";
  "usim/py/events.py:ConditionValue.__init__";
  "usim/py/events.py:ConditionValue.__getitem__";
  "usim/py/events.py:ConditionValue.__contains__";
  "usim/py/events.py:ConditionValue.__eq__";
  "usim/py/events.py:ConditionValue.__repr__";
  "usim/py/events.py:ConditionValue.__iter__";
  "usim/py/events.py:ConditionValue.values";
  "usim/py/events.py:ConditionValue.items";
  "usim/py/events.py:ConditionValue.todict";
  "usim/py/events.py:Condition.__init__";
  "usim/py/events.py:Condition._check_events";
  "usim/py/events.py:Condition._flatten_values";
  "usim/py/events.py:Condition.all_events";
  "usim/py/events.py:Condition.any_events";
  "usim/py/events.py:Condition.__repr__";
  "usim/py/events.py:AllOf.__init__";
  "usim/py/events.py:AnyOf.__init__";
  "usim/py/events.py:<module>";
  "usim/py/events.py:Event.<attrs>";
  "usim/py/events.py:Timeout.<attrs>";
  "usim/py/events.py:InterruptQueue.<attrs>";
  "usim/py/events.py:Process.<attrs>";
  "usim/py/events.py:ConditionValue.<attrs>";
  "usim/py/events.py:Condition.<attrs>";
  "usim/py/events.py:AllOf.<attrs>";
  "usim/py/events.py:AnyOf.<attrs>";
  "usim/py/core.py:EnvironmentScope._is_suppressed";
  "usim/py/core.py:Environment.__init__";
  "usim/py/core.py:Environment.__aenter__";
  "usim/py/core.py:Environment.__aexit__";
  "usim/py/core.py:Environment.until";
  "usim/py/core.py:Environment._run_until";
  "usim/py/core.py:Environment.run";
  "usim/py/core.py:Environment.step";
  "usim/py/core.py:Environment.peek";
  "usim/py/core.py:Environment.now";
  "usim/py/core.py:Environment.schedule";
  "usim/py/core.py:Environment._schedule";
  "usim/py/core.py:Environment.process";
  "usim/py/core.py:Environment.timeout";
  "usim/py/core.py:Environment.event";
  "usim/py/core.py:Environment.all_of";
  "usim/py/core.py:Environment.any_of";
  "usim/py/core.py:Environment.__del__";
  "usim/py/core.py:<module>";
  "usim/py/core.py:EnvironmentScope.<attrs>";
  "usim/py/core.py:Environment.<attrs>";
  "usim/py/_awaitable.py:AwaitableEvent.value";
  "usim/py/_awaitable.py:AwaitableEvent.ok";
  "usim/py/_awaitable.py:AwaitableEvent.__init__";
  "usim/py/_awaitable.py:AwaitableEvent.wait_interruptible";
  "usim/py/_awaitable.py:<module>";
  "usim/py/exceptions.py:Interrupt.cause";
  "usim/py/exceptions.py:<module>"].
(** the functions the model of C18 was transcribed from are unchanged in /repo *)
Lemma src_unchanged : forallb pin_ok pins = true.
Proof. apply pins_ok_by_trie. vm_compute. reflexivity. Qed.
