(* written by tools/pin_sources.py *)
From Coq Require Import List String Bool.
From UsimGen Require Import Generated SourcePins PinCheck.
Import ListNotations. Open Scope string_scope.
Definition pins : list string := ["usim/_core/loop.py:ActivityLeak.__init__";
  "usim/_core/loop.py:Hibernate.__await__";
  "usim/_core/loop.py:Loop.__init__";
  "usim/_core/loop.py:Loop.__repr__";
  "usim/_core/loop.py:Loop.run";
  "usim/_core/loop.py:Loop._run_events";
  "usim/_core/loop.py:Loop._run_coroutine";
  "usim/_core/loop.py:Loop.schedule";
  "usim/_core/loop.py:Interrupt.__init__";
  "usim/_core/loop.py:Interrupt.__bool__";
  "usim/_core/loop.py:Interrupt.revoke";
  "usim/_core/loop.py:Interrupt.__repr__";
  "usim/_core/loop.py:Activation.__init__";
  "usim/_core/loop.py:Activation.__bool__";
  "usim/_core/loop.py:Activation.__repr__";
  "usim/_core/loop.py:<module>";
  "usim/_core/loop.py:Hibernate.<attrs>";
  "usim/_core/loop.py:Loop.<attrs>";
  "usim/_core/loop.py:Interrupt.<attrs>";
  "usim/_core/loop.py:Activation.<attrs>";
  "usim/_core/waitq.py:HQWaitQueue.__init__";
  "usim/_core/waitq.py:HQWaitQueue.__bool__";
  "usim/_core/waitq.py:HQWaitQueue.__len__";
  "usim/_core/waitq.py:HQWaitQueue.push";
  "usim/_core/waitq.py:HQWaitQueue.pop";
  "usim/_core/waitq.py:HQWaitQueue.__repr__";
  "usim/_core/waitq.py:SDWaitQueue.__init__";
  "usim/_core/waitq.py:SDWaitQueue.__bool__";
  "usim/_core/waitq.py:SDWaitQueue.__len__";
  "usim/_core/waitq.py:SDWaitQueue.push";
  "usim/_core/waitq.py:SDWaitQueue.pop";
  "usim/_core/waitq.py:SDWaitQueue.__repr__";
  "usim/_core/waitq.py:<module>";
  "usim/_core/waitq.py:HQWaitQueue.<attrs>";
  "usim/_core/waitq.py:SDWaitQueue.<attrs>";
  "usim/_primitives/notification.py:postpone";
  "usim/_primitives/notification.py:suspend";
  "usim/_primitives/timing.py:After.__init__";
  "usim/_primitives/timing.py:After.__bool__";
  "usim/_primitives/timing.py:After.__invert__";
  "usim/_primitives/timing.py:After._ensure_trigger";
  "usim/_primitives/timing.py:After._async_trigger";
  "usim/_primitives/timing.py:After.__await__";
  "usim/_primitives/timing.py:After.__subscribe__";
  "usim/_primitives/timing.py:After.__repr__";
  "usim/_primitives/timing.py:After.__str__";
  "usim/_primitives/timing.py:After.<attrs>";
  "usim/_primitives/timing.py:Before.__init__";
  "usim/_primitives/timing.py:Before.__bool__";
  "usim/_primitives/timing.py:Before.__invert__";
  "usim/_primitives/timing.py:Before.__await__";
  "usim/_primitives/timing.py:Before.__repr__";
  "usim/_primitives/timing.py:Before.__str__";
  "usim/_primitives/timing.py:Before.<attrs>";
  "usim/_primitives/timing.py:Moment.__init__";
  "usim/_primitives/timing.py:Moment.__bool__";
  "usim/_primitives/timing.py:Moment.__invert__";
  "usim/_primitives/timing.py:Moment.__await__";
  "usim/_primitives/timing.py:Moment.__subscribe__";
  "usim/_primitives/timing.py:Moment.__unsubscribe__";
  "usim/_primitives/timing.py:Moment.__repr__";
  "usim/_primitives/timing.py:Moment.__str__";
  "usim/_primitives/timing.py:Moment.<attrs>";
  "usim/_primitives/timing.py:Eternity.__bool__";
  "usim/_primitives/timing.py:Eternity.__invert__";
  "usim/_primitives/timing.py:Eternity.__await__";
  "usim/_primitives/timing.py:Eternity.__repr__";
  "usim/_primitives/timing.py:Eternity.__str__";
  "usim/_primitives/timing.py:Eternity.<attrs>";
  "usim/_primitives/timing.py:Instant.__bool__";
  "usim/_primitives/timing.py:Instant.__invert__";
  "usim/_primitives/timing.py:Instant.__await__";
  "usim/_primitives/timing.py:Instant.__repr__";
  "usim/_primitives/timing.py:Instant.__str__";
  "usim/_primitives/timing.py:Instant.<attrs>";
  "usim/_primitives/timing.py:Delay.__init__";
  "usim/_primitives/timing.py:Delay.__subscribe__";
  "usim/_primitives/timing.py:Delay.__repr__";
  "usim/_primitives/timing.py:Delay.__str__";
  "usim/_primitives/timing.py:Delay.__and__";
  "usim/_primitives/timing.py:Delay.__or__";
  "usim/_primitives/timing.py:Delay.__invert__";
  "usim/_primitives/timing.py:Delay.<attrs>";
  "usim/_primitives/timing.py:Time.now";
  "usim/_primitives/timing.py:Time.__add__";
  "usim/_primitives/timing.py:Time.__ge__";
  "usim/_primitives/timing.py:Time.__eq__";
  "usim/_primitives/timing.py:Time.__lt__";
  "usim/_primitives/timing.py:Time.__le__";
  "usim/_primitives/timing.py:Time.__gt__";
  "usim/_primitives/timing.py:Time.__await__";
  "usim/_primitives/timing.py:Time.__str__";
  "usim/_primitives/timing.py:Time.__repr__";
  "usim/_primitives/timing.py:Time.<attrs>";
  "usim/_primitives/timing.py:<module>";
  "usim/_primitives/task.py:Task.__init__";
  "usim/_primitives/context.py:Scope.do";
  "usim/__init__.py:run";
  "usim/__init__.py:<module>";
  "usim/_primitives/context.py:<module>";
  "usim/_primitives/context.py:CancelScope.<attrs>";
  "usim/_primitives/context.py:CancelScope.__init__";
  "usim/_primitives/context.py:InterruptScope.<attrs>";
  "usim/_primitives/context.py:InterruptScope.__aenter__";
  "usim/_primitives/context.py:InterruptScope.__init__";
  "usim/_primitives/context.py:InterruptScope.__repr__";
  "usim/_primitives/context.py:InterruptScope._disable_interrupts";
  "usim/_primitives/context.py:InterruptScope._is_suppressed";
  "usim/_primitives/context.py:Scope.<attrs>";
  "usim/_primitives/context.py:Scope.__aenter__";
  "usim/_primitives/context.py:Scope.__aexit__";
  "usim/_primitives/context.py:Scope.__cancel__";
  "usim/_primitives/context.py:Scope.__child_finished__";
  "usim/_primitives/context.py:Scope.__init__";
  "usim/_primitives/context.py:Scope.__repr__";
  "usim/_primitives/context.py:Scope._await_children";
  "usim/_primitives/context.py:Scope._close_children";
  "usim/_primitives/context.py:Scope._close_scope";
  "usim/_primitives/context.py:Scope._close_volatile";
  "usim/_primitives/context.py:Scope._collect_exceptions";
  "usim/_primitives/context.py:Scope._disable_interrupts";
  "usim/_primitives/context.py:Scope._is_suppressed";
  "usim/_primitives/context.py:Scope._propagate_exceptions";
  "usim/_primitives/context.py:ScopeClosed.<attrs>";
  "usim/_primitives/context.py:ScopeClosed.__init__";
  "usim/_primitives/context.py:until";
  "usim/_primitives/notification.py:<module>";
  "usim/_primitives/notification.py:Notification.<attrs>";
  "usim/_primitives/notification.py:Notification.__await__";
  "usim/_primitives/notification.py:Notification.__awake_all__";
  "usim/_primitives/notification.py:Notification.__awake_next__";
  "usim/_primitives/notification.py:Notification.__del__";
  "usim/_primitives/notification.py:Notification.__init__";
  "usim/_primitives/notification.py:Notification.__subscribe__";
  "usim/_primitives/notification.py:Notification.__subscription__";
  "usim/_primitives/notification.py:Notification.__unsubscribe__";
  "usim/_primitives/timing.py:delay";
  "usim/_primitives/timing.py:interval"].
(** the functions the model of C01 was transcribed from are unchanged in /repo *)
Lemma src_unchanged : forallb pin_ok pins = true.
Proof. apply pins_ok_by_trie. vm_compute. reflexivity. Qed.
