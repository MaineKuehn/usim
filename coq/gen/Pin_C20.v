(* written by tools/pin_sources.py *)
From Coq Require Import List String Bool.
From UsimGen Require Import Generated SourcePins PinCheck.
Import ListNotations. Open Scope string_scope.
Definition pins : list string := ["usim/_primitives/notification.py:postpone";
  "usim/_primitives/notification.py:suspend";
  "usim/_primitives/notification.py:Notification.__await__";
  "usim/_primitives/condition.py:Condition.__await__";
  "usim/_primitives/condition.py:Connective.__init__";
  "usim/_primitives/condition.py:Connective.__await__";
  "usim/_primitives/condition.py:Connective.__await_children__";
  "usim/_primitives/condition.py:Connective.__pending_children__";
  "usim/_primitives/condition.py:Connective.__repr__";
  "usim/_primitives/condition.py:Connective.<attrs>";
  "usim/_primitives/flag.py:Flag.__init__";
  "usim/_primitives/flag.py:Flag.__bool__";
  "usim/_primitives/flag.py:Flag.__invert__";
  "usim/_primitives/flag.py:Flag.set";
  "usim/_primitives/flag.py:InverseFlag.__init__";
  "usim/_primitives/flag.py:InverseFlag.__bool__";
  "usim/_primitives/flag.py:InverseFlag.__invert__";
  "usim/_primitives/flag.py:InverseFlag.set";
  "usim/_primitives/flag.py:<module>";
  "usim/_primitives/flag.py:Flag.<attrs>";
  "usim/_primitives/flag.py:InverseFlag.<attrs>";
  "usim/_basics/tracked.py:Tracked.set";
  "usim/_basics/tracked.py:AsyncOperation.__await__";
  "usim/_basics/streams.py:StreamClosed.__init__";
  "usim/_basics/streams.py:Channel.closed";
  "usim/_basics/streams.py:Channel.__init__";
  "usim/_basics/streams.py:Channel.close";
  "usim/_basics/streams.py:Channel.__await__";
  "usim/_basics/streams.py:Channel.__aiter__";
  "usim/_basics/streams.py:Channel.put";
  "usim/_basics/streams.py:Channel.__repr__";
  "usim/_basics/streams.py:Queue.closed";
  "usim/_basics/streams.py:Queue.__init__";
  "usim/_basics/streams.py:Queue.close";
  "usim/_basics/streams.py:Queue.__await__";
  "usim/_basics/streams.py:Queue._await_message";
  "usim/_basics/streams.py:Queue.__aiter__";
  "usim/_basics/streams.py:Queue.put";
  "usim/_basics/streams.py:Queue.__repr__";
  "usim/_basics/streams.py:<module>";
  "usim/_basics/resource.py:ResourcesUnavailable.__init__";
  "usim/_basics/resource.py:BaseResources.levels";
  "usim/_basics/resource.py:BaseResources.resource_type";
  "usim/_basics/resource.py:BaseResources.__insert_resources__";
  "usim/_basics/resource.py:BaseResources.__remove_resources__";
  "usim/_basics/resource.py:BaseResources.borrow";
  "usim/_basics/resource.py:BaseResources.claim";
  "usim/_basics/resource.py:BaseResources.__repr__";
  "usim/_basics/resource.py:BaseResources.__eq__";
  "usim/_basics/resource.py:BaseResources.__ne__";
  "usim/_basics/resource.py:BaseResources.__gt__";
  "usim/_basics/resource.py:BaseResources.__ge__";
  "usim/_basics/resource.py:BaseResources.__le__";
  "usim/_basics/resource.py:BaseResources.__lt__";
  "usim/_basics/resource.py:BorrowedResources._levels_type";
  "usim/_basics/resource.py:BorrowedResources.limits";
  "usim/_basics/resource.py:BorrowedResources.__init__";
  "usim/_basics/resource.py:BorrowedResources.__aenter__";
  "usim/_basics/resource.py:BorrowedResources.__aexit__";
  "usim/_basics/resource.py:BorrowedResources.__release_nowait__";
  "usim/_basics/resource.py:BorrowedResources.borrow";
  "usim/_basics/resource.py:ClaimedResources.__aenter__";
  "usim/_basics/resource.py:Capacities.__init__";
  "usim/_basics/resource.py:Resources.__init__";
  "usim/_basics/resource.py:Resources.set";
  "usim/_basics/resource.py:Resources.increase";
  "usim/_basics/resource.py:Resources.decrease";
  "usim/_basics/resource.py:<module>";
  "usim/_basics/resource.py:ResourcesUnavailable.<attrs>";
  "usim/_basics/resource.py:BaseResources.<attrs>";
  "usim/_basics/pipe.py:Pipe.__init__";
  "usim/_basics/pipe.py:Pipe.transfer";
  "usim/_basics/pipe.py:Pipe._add_subscriber";
  "usim/_basics/pipe.py:Pipe._del_subscriber";
  "usim/_basics/pipe.py:Pipe._throttle_subscribers";
  "usim/_basics/pipe.py:UnboundedPipe.__init__";
  "usim/_basics/pipe.py:UnboundedPipe.transfer";
  "usim/_basics/pipe.py:<module>";
  "usim/_primitives/timing.py:After.__init__";
  "usim/_primitives/timing.py:After.__bool__";
  "usim/_primitives/timing.py:After.__invert__";
  "usim/_primitives/timing.py:After._ensure_trigger";
  "usim/_primitives/timing.py:After._async_trigger";
  "usim/_primitives/timing.py:After.__await__";
  "usim/_primitives/timing.py:After.__subscribe__";
  "usim/_primitives/timing.py:After.__repr__";
  "usim/_primitives/timing.py:After.__str__";
  "usim/_primitives/timing.py:Before.__init__";
  "usim/_primitives/timing.py:Before.__bool__";
  "usim/_primitives/timing.py:Before.__invert__";
  "usim/_primitives/timing.py:Before.__await__";
  "usim/_primitives/timing.py:Before.__repr__";
  "usim/_primitives/timing.py:Before.__str__";
  "usim/_primitives/timing.py:Moment.__init__";
  "usim/_primitives/timing.py:Moment.__bool__";
  "usim/_primitives/timing.py:Moment.__invert__";
  "usim/_primitives/timing.py:Moment.__await__";
  "usim/_primitives/timing.py:Moment.__subscribe__";
  "usim/_primitives/timing.py:Moment.__unsubscribe__";
  "usim/_primitives/timing.py:Moment.__repr__";
  "usim/_primitives/timing.py:Moment.__str__";
  "usim/_primitives/timing.py:Eternity.__bool__";
  "usim/_primitives/timing.py:Eternity.__invert__";
  "usim/_primitives/timing.py:Eternity.__await__";
  "usim/_primitives/timing.py:Eternity.__repr__";
  "usim/_primitives/timing.py:Eternity.__str__";
  "usim/_primitives/timing.py:Instant.__bool__";
  "usim/_primitives/timing.py:Instant.__invert__";
  "usim/_primitives/timing.py:Instant.__await__";
  "usim/_primitives/timing.py:Instant.__repr__";
  "usim/_primitives/timing.py:Instant.__str__";
  "usim/_primitives/timing.py:Delay.__init__";
  "usim/_primitives/timing.py:Delay.__subscribe__";
  "usim/_primitives/timing.py:Delay.__repr__";
  "usim/_primitives/timing.py:Delay.__str__";
  "usim/_primitives/timing.py:Delay.__and__";
  "usim/_primitives/timing.py:Delay.__or__";
  "usim/_primitives/timing.py:Delay.__invert__";
  "usim/_primitives/timing.py:Time.now";
  "usim/_primitives/timing.py:Time.__add__";
  "usim/_primitives/timing.py:Time.__ge__";
  "usim/_primitives/timing.py:Time.__eq__";
  "usim/_primitives/timing.py:Time.__lt__";
  "usim/_primitives/timing.py:Time.__le__";
  "usim/_primitives/timing.py:Time.__gt__";
  "usim/_primitives/timing.py:Time.__await__";
  "usim/_primitives/timing.py:Time.__str__";
  "usim/_primitives/timing.py:Time.__repr__";
  "usim/_primitives/timing.py:interval";
  "usim/_primitives/timing.py:delay";
  "usim/_primitives/timing.py:<module>";
  "usim/_primitives/timing.py:After.<attrs>";
  "usim/_primitives/timing.py:Before.<attrs>";
  "usim/_primitives/timing.py:Moment.<attrs>";
  "usim/_primitives/timing.py:Eternity.<attrs>";
  "usim/_primitives/timing.py:Instant.<attrs>";
  "usim/_primitives/timing.py:Delay.<attrs>";
  "usim/_primitives/timing.py:Time.<attrs>";
  "usim/_primitives/context.py:Scope.__aexit__";
  "usim/_primitives/context.py:Scope._await_children";
  "usim/_concurrent/basics.py:_first_monitor";
  "usim/_concurrent/basics.py:first";
  "usim/_concurrent/basics.py:collect";
  "usim/_concurrent/basics.py:<module>";
  "usim/_primitives/task.py:Task.__await__";
  "usim/_basics/tracked.py:<module>";
  "usim/_basics/tracked.py:AsyncComparison.<attrs>";
  "usim/_basics/tracked.py:AsyncComparison.__bool__";
  "usim/_basics/tracked.py:AsyncComparison.__init__";
  "usim/_basics/tracked.py:AsyncComparison.__invert__";
  "usim/_basics/tracked.py:AsyncComparison.__on_changed__";
  "usim/_basics/tracked.py:AsyncComparison.__str__";
  "usim/_basics/tracked.py:AsyncOperation.<attrs>";
  "usim/_basics/tracked.py:AsyncOperation.__init__";
  "usim/_basics/tracked.py:Tracked.<attrs>";
  "usim/_basics/tracked.py:Tracked.__add__";
  "usim/_basics/tracked.py:Tracked.__add_listener__";
  "usim/_basics/tracked.py:Tracked.__eq__";
  "usim/_basics/tracked.py:Tracked.__ge__";
  "usim/_basics/tracked.py:Tracked.__gt__";
  "usim/_basics/tracked.py:Tracked.__init__";
  "usim/_basics/tracked.py:Tracked.__le__";
  "usim/_basics/tracked.py:Tracked.__lt__";
  "usim/_basics/tracked.py:Tracked.__ne__";
  "usim/_basics/tracked.py:Tracked.__repr__";
  "usim/_basics/tracked.py:Tracked.value";
  "usim/_primitives/condition.py:<module>";
  "usim/_primitives/condition.py:All.<attrs>";
  "usim/_primitives/condition.py:All.__and__";
  "usim/_primitives/condition.py:All.__bool__";
  "usim/_primitives/condition.py:All.__invert__";
  "usim/_primitives/condition.py:All.__str__";
  "usim/_primitives/condition.py:Any.<attrs>";
  "usim/_primitives/condition.py:Any.__bool__";
  "usim/_primitives/condition.py:Any.__invert__";
  "usim/_primitives/condition.py:Any.__or__";
  "usim/_primitives/condition.py:Any.__str__";
  "usim/_primitives/condition.py:Condition.<attrs>";
  "usim/_primitives/condition.py:Condition.__and__";
  "usim/_primitives/condition.py:Condition.__or__";
  "usim/_primitives/condition.py:Condition.__repr__";
  "usim/_primitives/condition.py:Condition.__subscribe__";
  "usim/_primitives/condition.py:Condition.__trigger__";
  "usim/_primitives/context.py:<module>";
  "usim/_primitives/context.py:CancelScope.<attrs>";
  "usim/_primitives/context.py:CancelScope.__init__";
  "usim/_primitives/context.py:InterruptScope.<attrs>";
  "usim/_primitives/context.py:InterruptScope.__aenter__";
  "usim/_primitives/context.py:InterruptScope.__init__";
  "usim/_primitives/context.py:InterruptScope.__repr__";
  "usim/_primitives/context.py:InterruptScope._disable_interrupts";
  "usim/_primitives/context.py:InterruptScope._is_suppressed";
  "usim/_primitives/context.py:Scope.<attrs>";
  "usim/_primitives/context.py:Scope.__aenter__";
  "usim/_primitives/context.py:Scope.__await__";
  "usim/_primitives/context.py:Scope.__cancel__";
  "usim/_primitives/context.py:Scope.__child_finished__";
  "usim/_primitives/context.py:Scope.__init__";
  "usim/_primitives/context.py:Scope.__repr__";
  "usim/_primitives/context.py:Scope._close_children";
  "usim/_primitives/context.py:Scope._close_scope";
  "usim/_primitives/context.py:Scope._close_volatile";
  "usim/_primitives/context.py:Scope._collect_exceptions";
  "usim/_primitives/context.py:Scope._disable_interrupts";
  "usim/_primitives/context.py:Scope._is_suppressed";
  "usim/_primitives/context.py:Scope._propagate_exceptions";
  "usim/_primitives/context.py:Scope.do";
  "usim/_primitives/context.py:ScopeClosed.<attrs>";
  "usim/_primitives/context.py:ScopeClosed.__init__";
  "usim/_primitives/context.py:until";
  "usim/_primitives/notification.py:<module>";
  "usim/_primitives/notification.py:Notification.<attrs>";
  "usim/_primitives/notification.py:Notification.__awake_all__";
  "usim/_primitives/notification.py:Notification.__awake_next__";
  "usim/_primitives/notification.py:Notification.__del__";
  "usim/_primitives/notification.py:Notification.__init__";
  "usim/_primitives/notification.py:Notification.__subscribe__";
  "usim/_primitives/notification.py:Notification.__subscription__";
  "usim/_primitives/notification.py:Notification.__unsubscribe__"].
(** the functions the model of C20 was transcribed from are unchanged in /repo *)
Lemma src_unchanged : forallb pin_ok pins = true.
Proof. apply pins_ok_by_trie. vm_compute. reflexivity. Qed.
