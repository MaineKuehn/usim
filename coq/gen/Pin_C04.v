(* written by tools/pin_sources.py *)
From Coq Require Import List String Bool.
From UsimGen Require Import Generated SourcePins PinCheck.
Import ListNotations. Open Scope string_scope.
Definition pins : list string := ["usim/_primitives/context.py:CancelScope.__init__";
  "usim/_primitives/context.py:ScopeClosed.__init__";
  "usim/_primitives/context.py:Scope.__init__";
  "usim/_primitives/context.py:Scope.__await__";
  "usim/_primitives/context.py:Scope.do";
  "usim/_primitives/context.py:Scope.__cancel__";
  "usim/_primitives/context.py:Scope.__child_finished__";
  "usim/_primitives/context.py:Scope._disable_interrupts";
  "usim/_primitives/context.py:Scope._await_children";
  "usim/_primitives/context.py:Scope._close_children";
  "usim/_primitives/context.py:Scope._close_volatile";
  "usim/_primitives/context.py:Scope.__aenter__";
  "usim/_primitives/context.py:Scope.__aexit__";
  "usim/_primitives/context.py:Scope._close_scope";
  "usim/_primitives/context.py:Scope._collect_exceptions";
  "usim/_primitives/context.py:Scope._propagate_exceptions";
  "usim/_primitives/context.py:Scope._is_suppressed";
  "usim/_primitives/context.py:Scope.__repr__";
  "usim/_primitives/context.py:InterruptScope.__init__";
  "usim/_primitives/context.py:InterruptScope.__aenter__";
  "usim/_primitives/context.py:InterruptScope._disable_interrupts";
  "usim/_primitives/context.py:InterruptScope._is_suppressed";
  "usim/_primitives/context.py:InterruptScope.__repr__";
  "usim/_primitives/context.py:until";
  "usim/_primitives/context.py:<module>";
  "usim/_primitives/context.py:CancelScope.<attrs>";
  "usim/_primitives/context.py:ScopeClosed.<attrs>";
  "usim/_primitives/context.py:Scope.<attrs>";
  "usim/_primitives/context.py:InterruptScope.<attrs>";
  "usim/_primitives/task.py:try_close";
  "usim/_primitives/task.py:TaskCancelled.__init__";
  "usim/_primitives/task.py:CancelTask.__init__";
  "usim/_primitives/task.py:CancelTask.__transcript__";
  "usim/_primitives/task.py:Task.__init__";
  "usim/_primitives/task.py:Task.__await__";
  "usim/_primitives/task.py:Task.__exception__";
  "usim/_primitives/task.py:Task.done";
  "usim/_primitives/task.py:Task.status";
  "usim/_primitives/task.py:Task.__close__";
  "usim/_primitives/task.py:Task.cancel";
  "usim/_primitives/task.py:Task.__repr__";
  "usim/_primitives/task.py:Task.__del__";
  "usim/_primitives/task.py:Done.__init__";
  "usim/_primitives/task.py:Done.__bool__";
  "usim/_primitives/task.py:Done.__invert__";
  "usim/_primitives/task.py:Done.__set_done__";
  "usim/_primitives/task.py:Done.__repr__";
  "usim/_primitives/task.py:NotDone.__init__";
  "usim/_primitives/task.py:NotDone.__bool__";
  "usim/_primitives/task.py:NotDone.__invert__";
  "usim/_primitives/task.py:NotDone.__repr__";
  "usim/_primitives/task.py:<module>";
  "usim/_primitives/task.py:TaskState.<attrs>";
  "usim/_primitives/task.py:TaskCancelled.<attrs>";
  "usim/_primitives/task.py:CancelTask.<attrs>";
  "usim/_primitives/task.py:Task.<attrs>";
  "usim/_primitives/task.py:Done.<attrs>";
  "usim/_primitives/task.py:NotDone.<attrs>"].
(** the functions the model of C04 was transcribed from are unchanged in /repo *)
Lemma src_unchanged : forallb pin_ok pins = true.
Proof. apply pins_ok_by_trie. vm_compute. reflexivity. Qed.
