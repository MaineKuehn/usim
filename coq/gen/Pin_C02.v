(* written by tools/pin_sources.py *)
From Coq Require Import List String Bool.
From UsimGen Require Import Generated SourcePins PinCheck.
Import ListNotations. Open Scope string_scope.
Definition pins : list string := ["usim/_core/loop.py:ActivityLeak.__init__";
  "usim/_core/loop.py:Hibernate.__await__";
  "usim/_core/loop.py:Loop.__init__";
  "usim/_core/loop.py:Loop.__repr__";
  "usim/_core/loop.py:Loop.run";
  "usim/_core/loop.py:Loop._run_events";
  "usim/_core/loop.py:Loop._run_coroutine";
  "usim/_core/loop.py:Loop.schedule";
  "usim/_core/loop.py:Interrupt.__init__";
  "usim/_core/loop.py:Interrupt.__bool__";
  "usim/_core/loop.py:Interrupt.revoke";
  "usim/_core/loop.py:Interrupt.__repr__";
  "usim/_core/loop.py:Activation.__init__";
  "usim/_core/loop.py:Activation.__bool__";
  "usim/_core/loop.py:Activation.__repr__";
  "usim/_core/loop.py:<module>";
  "usim/_core/loop.py:Hibernate.<attrs>";
  "usim/_core/loop.py:Loop.<attrs>";
  "usim/_core/loop.py:Interrupt.<attrs>";
  "usim/_core/loop.py:Activation.<attrs>";
  "usim/_core/waitq.py:HQWaitQueue.__init__";
  "usim/_core/waitq.py:HQWaitQueue.__bool__";
  "usim/_core/waitq.py:HQWaitQueue.__len__";
  "usim/_core/waitq.py:HQWaitQueue.push";
  "usim/_core/waitq.py:HQWaitQueue.pop";
  "usim/_core/waitq.py:HQWaitQueue.__repr__";
  "usim/_core/waitq.py:SDWaitQueue.__init__";
  "usim/_core/waitq.py:SDWaitQueue.__bool__";
  "usim/_core/waitq.py:SDWaitQueue.__len__";
  "usim/_core/waitq.py:SDWaitQueue.push";
  "usim/_core/waitq.py:SDWaitQueue.pop";
  "usim/_core/waitq.py:SDWaitQueue.__repr__";
  "usim/_core/waitq.py:<module>";
  "usim/_core/waitq.py:HQWaitQueue.<attrs>";
  "usim/_core/waitq.py:SDWaitQueue.<attrs>";
  "usim/_primitives/notification.py:postpone";
  "usim/_primitives/notification.py:suspend";
  "usim/_primitives/notification.py:Notification.__init__";
  "usim/_primitives/notification.py:Notification.__await__";
  "usim/_primitives/notification.py:Notification.__awake_next__";
  "usim/_primitives/notification.py:Notification.__awake_all__";
  "usim/_primitives/notification.py:Notification.__subscribe__";
  "usim/_primitives/notification.py:Notification.__unsubscribe__";
  "usim/_primitives/notification.py:Notification.__subscription__";
  "usim/_primitives/notification.py:Notification.__del__";
  "usim/_primitives/notification.py:Notification.__repr__";
  "usim/_primitives/notification.py:<module>";
  "usim/_primitives/notification.py:Notification.<attrs>";
  "usim/_basics/tracked.py:Tracked.value";
  "usim/_basics/tracked.py:Tracked.__init__";
  "usim/_basics/tracked.py:Tracked.__add_listener__";
  "usim/_basics/tracked.py:Tracked.set";
  "usim/_basics/tracked.py:Tracked.__lt__";
  "usim/_basics/tracked.py:Tracked.__le__";
  "usim/_basics/tracked.py:Tracked.__eq__";
  "usim/_basics/tracked.py:Tracked.__ne__";
  "usim/_basics/tracked.py:Tracked.__ge__";
  "usim/_basics/tracked.py:Tracked.__gt__";
  "usim/_basics/tracked.py:Tracked.__add__";
  "usim/_basics/tracked.py:Tracked.__sub__";
  "usim/_basics/tracked.py:Tracked.__mul__";
  "usim/_basics/tracked.py:Tracked.__matmul__";
  "usim/_basics/tracked.py:Tracked.__truediv__";
  "usim/_basics/tracked.py:Tracked.__floordiv__";
  "usim/_basics/tracked.py:Tracked.__mod__";
  "usim/_basics/tracked.py:Tracked.__pow__";
  "usim/_basics/tracked.py:Tracked.__lshift__";
  "usim/_basics/tracked.py:Tracked.__rshift__";
  "usim/_basics/tracked.py:Tracked.__and__";
  "usim/_basics/tracked.py:Tracked.__or__";
  "usim/_basics/tracked.py:Tracked.__xor__";
  "usim/_basics/tracked.py:Tracked.__radd__";
  "usim/_basics/tracked.py:Tracked.__iadd__";
  "usim/_basics/tracked.py:Tracked.__bool__";
  "usim/_basics/tracked.py:Tracked.__await__";
  "usim/_basics/tracked.py:Tracked.__repr__";
  "usim/_basics/tracked.py:Tracked.<attrs>";
  "usim/_basics/tracked.py:AsyncComparison.__bool__";
  "usim/_basics/tracked.py:AsyncComparison.__invert__";
  "usim/_basics/tracked.py:AsyncComparison.__init__";
  "usim/_basics/tracked.py:AsyncComparison.__on_changed__";
  "usim/_basics/tracked.py:AsyncComparison.__str__";
  "usim/_basics/tracked.py:AsyncComparison.__repr__";
  "usim/_basics/tracked.py:AsyncComparison.<attrs>";
  "usim/_primitives/condition.py:Condition.__bool__";
  "usim/_primitives/condition.py:Condition.__await__";
  "usim/_primitives/condition.py:Condition.__and__";
  "usim/_primitives/condition.py:Condition.__or__";
  "usim/_primitives/condition.py:Condition.__invert__";
  "usim/_primitives/condition.py:Condition.__trigger__";
  "usim/_primitives/condition.py:Condition.__subscribe__";
  "usim/_primitives/condition.py:Condition.__repr__";
  "usim/_primitives/condition.py:Connective.__init__";
  "usim/_primitives/condition.py:Connective.__await__";
  "usim/_primitives/condition.py:Connective.__await_children__";
  "usim/_primitives/condition.py:Connective.__pending_children__";
  "usim/_primitives/condition.py:Connective.__repr__";
  "usim/_primitives/condition.py:All.__bool__";
  "usim/_primitives/condition.py:All.__and__";
  "usim/_primitives/condition.py:All.__invert__";
  "usim/_primitives/condition.py:All.__str__";
  "usim/_primitives/condition.py:Any.__bool__";
  "usim/_primitives/condition.py:Any.__or__";
  "usim/_primitives/condition.py:Any.__invert__";
  "usim/_primitives/condition.py:Any.__str__";
  "usim/_primitives/condition.py:<module>";
  "usim/_primitives/condition.py:Condition.<attrs>";
  "usim/_primitives/condition.py:Connective.<attrs>";
  "usim/_primitives/condition.py:All.<attrs>";
  "usim/_primitives/condition.py:Any.<attrs>";
  "usim/_primitives/timing.py:After.__init__";
  "usim/_primitives/timing.py:After.__bool__";
  "usim/_primitives/timing.py:After.__invert__";
  "usim/_primitives/timing.py:After._ensure_trigger";
  "usim/_primitives/timing.py:After._async_trigger";
  "usim/_primitives/timing.py:After.__await__";
  "usim/_primitives/timing.py:After.__subscribe__";
  "usim/_primitives/timing.py:After.__repr__";
  "usim/_primitives/timing.py:After.__str__";
  "usim/_primitives/timing.py:After.<attrs>";
  "usim/_primitives/timing.py:Before.__init__";
  "usim/_primitives/timing.py:Before.__bool__";
  "usim/_primitives/timing.py:Before.__invert__";
  "usim/_primitives/timing.py:Before.__await__";
  "usim/_primitives/timing.py:Before.__repr__";
  "usim/_primitives/timing.py:Before.__str__";
  "usim/_primitives/timing.py:Before.<attrs>";
  "usim/_primitives/timing.py:Moment.__init__";
  "usim/_primitives/timing.py:Moment.__bool__";
  "usim/_primitives/timing.py:Moment.__invert__";
  "usim/_primitives/timing.py:Moment.__await__";
  "usim/_primitives/timing.py:Moment.__subscribe__";
  "usim/_primitives/timing.py:Moment.__unsubscribe__";
  "usim/_primitives/timing.py:Moment.__repr__";
  "usim/_primitives/timing.py:Moment.__str__";
  "usim/_primitives/timing.py:Moment.<attrs>";
  "usim/_primitives/timing.py:Eternity.__bool__";
  "usim/_primitives/timing.py:Eternity.__invert__";
  "usim/_primitives/timing.py:Eternity.__await__";
  "usim/_primitives/timing.py:Eternity.__repr__";
  "usim/_primitives/timing.py:Eternity.__str__";
  "usim/_primitives/timing.py:Eternity.<attrs>";
  "usim/_primitives/timing.py:Instant.__bool__";
  "usim/_primitives/timing.py:Instant.__invert__";
  "usim/_primitives/timing.py:Instant.__await__";
  "usim/_primitives/timing.py:Instant.__repr__";
  "usim/_primitives/timing.py:Instant.__str__";
  "usim/_primitives/timing.py:Instant.<attrs>";
  "usim/_primitives/timing.py:Delay.__init__";
  "usim/_primitives/timing.py:Delay.__subscribe__";
  "usim/_primitives/timing.py:Delay.__repr__";
  "usim/_primitives/timing.py:Delay.__str__";
  "usim/_primitives/timing.py:Delay.__and__";
  "usim/_primitives/timing.py:Delay.__or__";
  "usim/_primitives/timing.py:Delay.__invert__";
  "usim/_primitives/timing.py:Delay.<attrs>";
  "usim/_primitives/timing.py:Time.now";
  "usim/_primitives/timing.py:Time.__add__";
  "usim/_primitives/timing.py:Time.__ge__";
  "usim/_primitives/timing.py:Time.__eq__";
  "usim/_primitives/timing.py:Time.__lt__";
  "usim/_primitives/timing.py:Time.__le__";
  "usim/_primitives/timing.py:Time.__gt__";
  "usim/_primitives/timing.py:Time.__await__";
  "usim/_primitives/timing.py:Time.__str__";
  "usim/_primitives/timing.py:Time.__repr__";
  "usim/_primitives/timing.py:Time.<attrs>";
  "usim/_primitives/timing.py:<module>";
  "usim/_primitives/context.py:Scope.__init__";
  "usim/_primitives/context.py:Scope.do";
  "usim/_primitives/context.py:Scope._close_children";
  "usim/_primitives/context.py:Scope._close_volatile";
  "usim/_primitives/context.py:Scope._await_children";
  "usim/_basics/tracked.py:<module>";
  "usim/_basics/tracked.py:AsyncOperation.<attrs>";
  "usim/_basics/tracked.py:AsyncOperation.__await__";
  "usim/_basics/tracked.py:AsyncOperation.__init__"].
(** the functions the model of C02 was transcribed from are unchanged in /repo *)
Lemma src_unchanged : forallb pin_ok pins = true.
Proof. apply pins_ok_by_trie. vm_compute. reflexivity. Qed.
