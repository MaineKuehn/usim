(* written by tools/pin_sources.py *)
From Coq Require Import List String Bool.
From UsimGen Require Import Generated SourcePins PinCheck.
Import ListNotations. Open Scope string_scope.
Definition pins : list string := ["usim/py/resources/__init__.py:<module>";
  "usim/py/resources/base.py:BaseRequest.__init__";
  "usim/py/resources/base.py:BaseRequest.__enter__";
  "usim/py/resources/base.py:BaseRequest.__exit__";
  "usim/py/resources/base.py:BaseRequest.cancel";
  "usim/py/resources/base.py:Put.__init__";
  "usim/py/resources/base.py:Put.cancel";
  "usim/py/resources/base.py:Get.__init__";
  "usim/py/resources/base.py:Get.cancel";
  "usim/py/resources/base.py:BaseResource.__init__";
  "usim/py/resources/base.py:BaseResource.capacity";
  "usim/py/resources/base.py:BaseResource.put";
  "usim/py/resources/base.py:BaseResource.get";
  "usim/py/resources/base.py:BaseResource._trigger_put";
  "usim/py/resources/base.py:BaseResource._trigger_get";
  "usim/py/resources/base.py:BaseResource._do_get";
  "usim/py/resources/base.py:BaseResource._do_put";
  "usim/py/resources/base.py:<module>";
  "usim/py/resources/base.py:BaseResource.<attrs>";
  "usim/py/resources/container.py:ContainerPut.__init__";
  "usim/py/resources/container.py:ContainerGet.__init__";
  "usim/py/resources/container.py:Container.__init__";
  "usim/py/resources/container.py:Container.level";
  "usim/py/resources/container.py:Container.put";
  "usim/py/resources/container.py:Container.get";
  "usim/py/resources/container.py:Container._do_put";
  "usim/py/resources/container.py:Container._do_get";
  "usim/py/resources/container.py:<module>";
  "usim/py/resources/resource.py:Request.__exit__";
  "usim/py/resources/resource.py:Release.__init__";
  "usim/py/resources/resource.py:Resource.__init__";
  "usim/py/resources/resource.py:Resource.queue";
  "usim/py/resources/resource.py:Resource.count";
  "usim/py/resources/resource.py:Resource.put";
  "usim/py/resources/resource.py:Resource.get";
  "usim/py/resources/resource.py:Resource.request";
  "usim/py/resources/resource.py:Resource.release";
  "usim/py/resources/resource.py:Resource._do_put";
  "usim/py/resources/resource.py:Resource._do_get";
  "usim/py/resources/resource.py:PriorityRequest.__init__";
  "usim/py/resources/resource.py:SortedQueue.__init__";
  "usim/py/resources/resource.py:SortedQueue.append";
  "usim/py/resources/resource.py:PriorityResource.request";
  "usim/py/resources/resource.py:Preempted.__init__";
  "usim/py/resources/resource.py:PreemptiveResource.__init__";
  "usim/py/resources/resource.py:PreemptiveResource._do_put";
  "usim/py/resources/resource.py:<module>";
  "usim/py/resources/resource.py:Request.<attrs>";
  "usim/py/resources/resource.py:Release.<attrs>";
  "usim/py/resources/resource.py:PriorityResource.<attrs>";
  "usim/py/resources/resource.py:Preempted.<attrs>";
  "usim/py/resources/store.py:StorePut.__init__";
  "usim/py/resources/store.py:Store.__init__";
  "usim/py/resources/store.py:Store.items";
  "usim/py/resources/store.py:Store.get";
  "usim/py/resources/store.py:Store.put";
  "usim/py/resources/store.py:Store._do_put";
  "usim/py/resources/store.py:Store._do_get";
  "usim/py/resources/store.py:FilterStoreGet.__init__";
  "usim/py/resources/store.py:accept_any";
  "usim/py/resources/store.py:FilterStore.__init__";
  "usim/py/resources/store.py:FilterStore.get";
  "usim/py/resources/store.py:FilterStore._trigger_get";
  "usim/py/resources/store.py:FilterStore._do_get";
  "usim/py/resources/store.py:PriorityItem.__lt__";
  "usim/py/resources/store.py:PriorityItem.__gt__";
  "usim/py/resources/store.py:PriorityItem.__le__";
  "usim/py/resources/store.py:PriorityItem.__ge__";
  "usim/py/resources/store.py:PriorityItem.__eq__";
  "usim/py/resources/store.py:PriorityItem.__ne__";
  "usim/py/resources/store.py:PriorityStore.__init__";
  "usim/py/resources/store.py:PriorityStore._do_put";
  "usim/py/resources/store.py:PriorityStore._do_get";
  "usim/py/resources/store.py:<module>";
  "usim/py/resources/store.py:PriorityItem.<attrs>"].
(** the functions the model of C19 was transcribed from are unchanged in /repo *)
Lemma src_unchanged : forallb pin_ok pins = true.
Proof. apply pins_ok_by_trie. vm_compute. reflexivity. Qed.
