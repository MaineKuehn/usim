(* Invariants of LockProto over ALL reachable states (every interleaving of requests, wake-up
   deliveries, foreign signals at any waiter, exits by any cause) and the C09 theorems. *)
From Coq Require Import List Arith Lia Sorting.Sorted.
From Usim Require Import ListFacts LockProto.
Import ListNotations.

Lemma upd_same {A} (f : aid -> A) a v : upd f a v a = v.
Proof. unfold upd. now rewrite Nat.eqb_refl. Qed.

Lemma upd_other {A} (f : aid -> A) a v b : b <> a -> upd f a v b = f b.
Proof. unfold upd. intros H. apply Nat.eqb_neq in H. now rewrite H. Qed.

Lemma mem_In a l : mem a l = true <-> In a l.
Proof.
  unfold mem. rewrite existsb_exists. split.
  - intros (x & Hx & E). apply Nat.eqb_eq in E. now subst.
  - intros H. exists a. split; auto. apply Nat.eqb_refl.
Qed.

Lemma mem_false a l : mem a l = false <-> ~ In a l.
Proof. rewrite <- mem_In. destruct (mem a l); split; congruence. Qed.

Lemma NoDup_app_disjoint {A} (l1 l2 : list A) a : NoDup (l1 ++ l2) -> In a l1 -> In a l2 -> False.
Proof.
  intros B H1 H2. apply in_split in H1 as (k1 & k2 & ->). rewrite <- app_assoc in B. cbn in B.
  apply NoDup_remove_2 in B. apply B. rewrite !in_app_iff. auto.
Qed.

Lemma In_rem1 a b l : In b (rem1 a l) -> In b l.
Proof.
  induction l as [|c r IH]; cbn; auto. destruct (Nat.eqb_spec c a); cbn; intuition.
Qed.

Lemma In_rem1_neq a b l : b <> a -> In b l -> In b (rem1 a l).
Proof.
  intros N. induction l as [|c r IH]; cbn; auto. intros [->|H].
  - destruct (Nat.eqb_spec b a); [contradiction | now left].
  - destruct (Nat.eqb_spec c a); auto. right; auto.
Qed.

Lemma NoDup_rem1 a l : NoDup l -> NoDup (rem1 a l) /\ ~ In a (rem1 a l).
Proof.
  induction 1 as [|c r Hc Hr IH]; cbn.
  - split; [constructor | auto].
  - destruct (Nat.eqb_spec c a) as [->|N].
    + split; auto.
    + destruct IH as [I1 I2]. split.
      * constructor; auto. intros H. apply Hc. eapply In_rem1; eauto.
      * intros [E|H]; auto.
Qed.

Lemma rem1_notin a l : ~ In a l -> rem1 a l = l.
Proof.
  induction l as [|c r IH]; cbn; auto. intros H.
  destruct (Nat.eqb_spec c a) as [->|N]; [exfalso; auto|]. f_equal. apply IH. auto.
Qed.

Lemma rem1_app_notin a l1 l2 : ~ In a l1 -> rem1 a (l1 ++ l2) = l1 ++ rem1 a l2.
Proof.
  induction l1 as [|c r IH]; cbn; auto. intros H.
  destruct (Nat.eqb_spec c a) as [->|N]; [exfalso; auto|]. f_equal. apply IH. auto.
Qed.

Lemma SS_map_rem1 (R : nat -> nat -> Prop) (f : aid -> nat) a l :
  StronglySorted R (map f l) -> StronglySorted R (map f (rem1 a l)).
Proof.
  induction l as [|c r IH]; cbn; auto. intros H. apply StronglySorted_inv in H as [H1 H2].
  destruct (Nat.eqb_spec c a); auto. cbn. constructor; auto.
  rewrite Forall_forall in *. intros x Hx. apply H2. rewrite in_map_iff in *.
  destruct Hx as (y & <- & Hy). exists y. split; auto. eapply In_rem1; eauto.
Qed.

Lemma map_upd_notin (f : aid -> nat) a v l : ~ In a l -> map (upd f a v) l = map f l.
Proof.
  intros H. apply map_ext_in. intros b Hb. apply upd_other. intros ->. auto.
Qed.

Lemma step_request s a s' : step s (Request a) = Some s' ->
  (ph s a = Idle /\ owner s = None /\
   s' = mk (Some a) (S (depth s)) (waiting s) (woken s) (upd (ph s) a (Inside 1))
           (upd (tick s) a (ntick s)) (S (ntick s)) (grants s ++ [ntick s])) \/
  (ph s a = Idle /\ (exists o, owner s = Some o /\ o <> a) /\
   s' = mk (owner s) (depth s) (waiting s ++ [a]) (woken s) (upd (ph s) a Waiting)
           (upd (tick s) a (ntick s)) (S (ntick s)) (grants s)) \/
  (exists n, ph s a = Inside n /\ owner s = Some a /\
   s' = mk (owner s) (S (depth s)) (waiting s) (woken s) (upd (ph s) a (Inside (S n)))
           (tick s) (ntick s) (grants s)).
Proof.
  cbn. destruct (ph s a) as [| |n]; try discriminate; destruct (owner s) as [o|]; try discriminate.
  - destruct (Nat.eqb_spec o a) as [|N]; [discriminate|]. intros [= <-]. right; left. eauto.
  - intros [= <-]. left. auto.
  - destruct (Nat.eqb_spec o a) as [->|]; [|discriminate]. intros [= <-]. right; right. eauto.
Qed.

Lemma step_wake s a s' : step s (DeliverWake a) = Some s' ->
  ph s a = Waiting /\ In a (woken s) /\
  s' = mk (owner s) (S (depth s)) (waiting s) (rem1 a (woken s)) (upd (ph s) a (Inside 1))
          (tick s) (ntick s) (grants s ++ [tick s a]).
Proof.
  cbn. destruct (ph s a); try discriminate. unfold unsubscribe.
  destruct (mem a (woken s)) eqn:M; [|discriminate]. apply mem_In in M. intros [= <-]. auto.
Qed.

Lemma step_foreign s a s' : step s (DeliverForeign a) = Some s' ->
  ph s a = Waiting /\
  s' = set_ph (if is_owner (unsubscribe a s) a then release (unsubscribe a s) else unsubscribe a s) a Idle.
Proof. cbn. destruct (ph s a); try discriminate. intros [= <-]. auto. Qed.

Lemma step_exit s a s' : step s (Exit a) = Some s' -> exists n, ph s a = Inside (S n) /\
  s' = (let s1 := mk (owner s) (pred (depth s)) (waiting s) (woken s)
                     (upd (ph s) a (match n with O => Idle | _ => Inside n end))
                     (tick s) (ntick s) (grants s) in
        if Nat.eqb (depth s1) 0 then release s1 else s1).
Proof. cbn. destruct (ph s a) as [| |[|n]]; try discriminate. intros [= <-]. eauto. Qed.

(* `__release__` and `__unsubscribe__` move activities between the waiting list and the scheduled
   wake-ups; the queue of outstanding requests as a whole is only shortened by `__unsubscribe__` *)
Lemma release_keeps s :
  ph (release s) = ph s /\ tick (release s) = tick s /\ ntick (release s) = ntick s /\
  grants (release s) = grants s /\ depth (release s) = depth s /\ pendq (release s) = pendq s.
Proof.
  unfold release, pendq. destruct (waiting s); cbn; rewrite <- ?app_assoc, ?app_nil_r; auto 10.
Qed.

Lemma unsubscribe_keeps a s :
  ph (unsubscribe a s) = ph s /\ tick (unsubscribe a s) = tick s /\ ntick (unsubscribe a s) = ntick s /\
  grants (unsubscribe a s) = grants s /\ depth (unsubscribe a s) = depth s /\
  owner (unsubscribe a s) = owner s.
Proof. unfold unsubscribe. destruct (mem a (woken s)); cbn; auto 10. Qed.

Lemma ph_release s : ph (release s) = ph s.
Proof. apply release_keeps. Qed.

Lemma tick_release s : tick (release s) = tick s.
Proof. apply release_keeps. Qed.

Lemma ntick_release s : ntick (release s) = ntick s.
Proof. apply release_keeps. Qed.

Lemma grants_release s : grants (release s) = grants s.
Proof. apply release_keeps. Qed.

Lemma grants_unsubscribe a s : grants (unsubscribe a s) = grants s.
Proof. apply unsubscribe_keeps. Qed.

Definition inv_owner (s : st) : Prop :=
  match owner s with
  | None => depth s = 0 /\ waiting s = [] /\ woken s = [] /\ (forall a n, ph s a <> Inside n)
  | Some o =>
      (forall a n, ph s a = Inside n -> a = o) /\
      match ph s o with
      | Inside n => n = depth s /\ 1 <= n /\ woken s = [] /\ exists g, grants s = g ++ [tick s o]
      | Waiting => woken s = [o] /\ depth s = 0
      | Idle => False
      end
  end.

Record inv (s : st) : Prop := {
  iA : forall a, ph s a = Waiting <-> In a (pendq s);
  iB : NoDup (pendq s);
  iC : inv_owner s;
  iD1 : StronglySorted lt (grants s);
  iD2 : forall g b, In g (grants s) -> In b (pendq s) -> g < tick s b;
  iD3 : StronglySorted lt (map (tick s) (pendq s));
  iD4 : forall g, In g (grants s) -> g < ntick s;
  iD5 : forall b, In b (pendq s) -> tick s b < ntick s
}.

(* Everything in [inv] but [iC] speaks of the outstanding requests [q] as one queue, whichever part
   of it is scheduled: the waiting activities are its members, and the tickets granted so far
   followed by the tickets of the queue are increasing and below the next ticket. *)
Record queued (p : aid -> phase) (q : list aid) (tk : aid -> nat) (g : list nat) (n : nat) : Prop := {
  kA : forall a, p a = Waiting <-> In a q;
  kB : NoDup q;
  kS : StronglySorted lt (g ++ map tk q);
  kN : Forall (fun t => t < n) (g ++ map tk q)
}.

Lemma inv_split s :
  inv s <-> queued (ph s) (pendq s) (tick s) (grants s) (ntick s) /\ inv_owner s.
Proof.
  split.
  - intros [A B C D1 D2 D3 D4 D5]. split; [constructor|]; auto.
    + apply StronglySorted_app. repeat split; auto.
      intros x y Hx Hy. apply in_map_iff in Hy as (b & <- & Hb). auto.
    + apply Forall_app. split; apply Forall_forall; auto.
      intros x Hx. apply in_map_iff in Hx as (b & <- & Hb). auto.
  - intros [[A B S N] C]. apply StronglySorted_app in S as (S1 & S2 & S3).
    apply Forall_app in N as [N1 N2]. rewrite Forall_forall in N1, N2.
    constructor; auto.
    + intros g b Hg Hb. apply S3; auto. now apply in_map.
    + intros b Hb. now apply N2, in_map.
Qed.

Lemma inv_queued s : inv s -> queued (ph s) (pendq s) (tick s) (grants s) (ntick s).
Proof. intros I. now apply inv_split in I. Qed.

Lemma line_fresh l n : StronglySorted lt l -> Forall (fun t => t < n) l ->
  StronglySorted lt (l ++ [n]) /\ Forall (fun t => t < S n) (l ++ [n]).
Proof.
  intros S N. split.
  - apply StronglySorted_app. split; [exact S | split; [repeat constructor|]].
    intros x y Hx [<-|[]]. exact (proj1 (Forall_forall _ _) N x Hx).
  - apply Forall_app. split; [|repeat constructor]. eapply Forall_impl; [|exact N]. intros t. cbn. lia.
Qed.

Lemma queued_enqueue p q tk g n a : queued p q tk g n -> ~ In a q ->
  queued (upd p a Waiting) (q ++ [a]) (upd tk a n) g (S n).
Proof.
  intros [A B S N] Na.
  assert (E : g ++ map (upd tk a n) (q ++ [a]) = (g ++ map tk q) ++ [n]).
  { rewrite map_app, map_upd_notin, app_assoc by exact Na. cbn. now rewrite upd_same. }
  destruct (line_fresh _ _ S N). constructor; rewrite ?E; auto.
  - intros b. rewrite in_app_iff. unfold upd. destruct (Nat.eqb_spec b a) as [->|Nb]; cbn; [tauto|].
    rewrite A. intuition congruence.
  - now apply NoDup_snoc.
Qed.

Lemma queued_grant_new p tk g n a x : queued p [] tk g n -> x <> Waiting ->
  queued (upd p a x) [] (upd tk a n) (g ++ [n]) (S n).
Proof.
  intros [A B S N] Nx. cbn in S, N. rewrite app_nil_r in S, N. destruct (line_fresh _ _ S N).
  constructor; cbn; rewrite ?app_nil_r; auto.
  intros b. unfold upd. destruct (Nat.eqb_spec b a); [tauto | apply A].
Qed.

Lemma queued_wake p q tk g n a : queued p (a :: q) tk g n ->
  queued (upd p a (Inside 1)) q tk (g ++ [tk a]) n.
Proof.
  intros [A B S N]. apply NoDup_cons_iff in B as [Na B]. constructor; rewrite <- ?app_assoc; auto.
  intros b. unfold upd. destruct (Nat.eqb_spec b a) as [->|Nb].
  - split; [discriminate | contradiction].
  - rewrite A. cbn. intuition congruence.
Qed.

Lemma queued_drop p q tk g n a x : queued p q tk g n -> x <> Waiting ->
  queued (upd p a x) (rem1 a q) tk g n.
Proof.
  intros [A B S N] Nx. destruct (NoDup_rem1 a _ B) as [B1 B2].
  assert (Sub : forall y, In y (map tk (rem1 a q)) -> In y (map tk q)).
  { intros y Hy. apply in_map_iff in Hy as (b & <- & Hb). apply in_map. eapply In_rem1; eauto. }
  apply StronglySorted_app in S as (S1 & S2 & S3). apply Forall_app in N as [N1 N2].
  constructor; auto.
  - intros b. unfold upd. destruct (Nat.eqb_spec b a) as [->|Nb]; [tauto|].
    rewrite A. split; [now apply In_rem1_neq | apply In_rem1].
  - apply StronglySorted_app. split; [exact S1 | split; [now apply SS_map_rem1 | auto]].
  - apply Forall_app. split; [exact N1|]. rewrite Forall_forall in *. auto.
Qed.

Lemma queued_rephase p q tk g n a x : queued p q tk g n -> ~ In a q -> x <> Waiting ->
  queued (upd p a x) q tk g n.
Proof. intros K Na Nx. rewrite <- (rem1_notin a q Na). now apply queued_drop. Qed.

Lemma inv_free s : inv s -> owner s = None ->
  depth s = 0 /\ waiting s = [] /\ woken s = [] /\ forall a n, ph s a <> Inside n.
Proof. intros I O. pose proof (iC _ I) as C. unfold inv_owner in C. now rewrite O in C. Qed.

Lemma owner_phase s o : inv s -> owner s = Some o ->
  (exists n, ph s o = Inside n /\ depth s = n /\ 1 <= n /\ woken s = [] /\
             exists g, grants s = g ++ [tick s o]) \/
  (ph s o = Waiting /\ woken s = [o] /\ depth s = 0).
Proof.
  intros I O. pose proof (iC _ I) as C. unfold inv_owner in C. rewrite O in C.
  destruct C as [_ C]. destruct (ph s o) as [| |n]; [contradiction | now right | left].
  destruct C as (-> & L & W & G). eauto 10.
Qed.

Lemma only_owner_inside s o : inv s -> owner s = Some o -> forall a n, ph s a = Inside n -> a = o.
Proof. intros I O. pose proof (iC _ I) as C. unfold inv_owner in C. rewrite O in C. apply C. Qed.

Lemma inside_owner s : inv s -> forall a n, ph s a = Inside n ->
  owner s = Some a /\ depth s = n /\ 1 <= n /\ woken s = [].
Proof.
  intros I a n Ha. destruct (owner s) as [o|] eqn:O.
  - assert (a = o) as <- by (eapply only_owner_inside; eauto).
    destruct (owner_phase _ _ I O) as [(k & Pk & D & L & W & _)|(Pw & _)]; [|congruence].
    rewrite Ha in Pk. injection Pk as <-. auto.
  - destruct (inv_free _ I O) as (_ & _ & _ & NI). now apply NI in Ha.
Qed.

Lemma inside_unique s : inv s -> forall a b n k, ph s a = Inside n -> ph s b = Inside k -> a = b.
Proof.
  intros I a b n k Ha Hb. destruct (inside_owner _ I _ _ Ha) as (Oa & _).
  destruct (inside_owner _ I _ _ Hb) as (Ob & _). congruence.
Qed.

Lemma inside_last_grant s : inv s -> forall a n, ph s a = Inside n ->
  exists g, grants s = g ++ [tick s a].
Proof.
  intros I a n Ha. destruct (inside_owner _ I _ _ Ha) as (O & _).
  destruct (owner_phase _ _ I O) as [(k & _ & _ & _ & _ & G)|(Pw & _)]; [exact G | congruence].
Qed.

Lemma woken_shape s : inv s -> forall a, In a (woken s) ->
  owner s = Some a /\ ph s a = Waiting /\ woken s = [a] /\ depth s = 0.
Proof.
  intros I a Ha. destruct (owner s) as [o|] eqn:O.
  - destruct (owner_phase _ _ I O) as [(k & _ & _ & _ & W & _)|(Pw & W & Z)]; rewrite W in Ha.
    + destruct Ha.
    + destruct Ha as [<-|[]]. auto.
  - destruct (inv_free _ I O) as (_ & _ & W & _). rewrite W in Ha. destruct Ha.
Qed.

Lemma inv_init : inv init.
Proof.
  apply inv_split. split; [constructor|]; cbn; try constructor; auto; try discriminate; try contradiction.
  repeat split; intros; discriminate.
Qed.

Lemma only_inside_upd (p : aid -> phase) a x o :
  (forall b n, p b = Inside n -> b = o) -> (a = o \/ forall n, x <> Inside n) ->
  forall b n, upd p a x b = Inside n -> b = o.
Proof.
  intros H Hx b n. unfold upd. destruct (Nat.eqb_spec b a) as [->|Nb]; [|apply H].
  destruct Hx as [|Nx]; [auto | intros E; now apply Nx in E].
Qed.

Lemma inv_request s a s' : inv s -> step s (Request a) = Some s' -> inv s'.
Proof.
  intros I H. pose proof (inv_queued _ I) as K. apply inv_split.
  apply step_request in H as [(Pa & O & ->)|[(Pa & (o & O & No) & ->)|(n & Pa & O & ->)]];
    unfold inv_owner, pendq in *; cbn.
  - destruct (inv_free _ I O) as (Dz & W1 & W2 & NI). rewrite W1, W2 in *. split.
    + apply queued_grant_new; [exact K | discriminate].
    + rewrite !upd_same, Dz. split; [|eauto 6].
      apply only_inside_upd; [|now left]. intros b k Hb. now apply NI in Hb.
  - assert (Na : ~ In a (woken s ++ waiting s)) by (rewrite <- (iA _ I); congruence).
    rewrite app_assoc, O. split; [now apply queued_enqueue|].
    pose proof (iC _ I) as C. unfold inv_owner in C. rewrite O in C. destruct C as [C1 C2]. split.
    + apply only_inside_upd; [exact C1 | right; discriminate].
    + now rewrite !upd_other by exact No.
  - assert (Na : ~ In a (woken s ++ waiting s)) by (rewrite <- (iA _ I); congruence).
    rewrite O. split; [apply queued_rephase; [exact K | exact Na | discriminate]|].
    destruct (inside_owner _ I _ _ Pa) as (_ & <- & L & W).
    destruct (inside_last_grant _ I _ _ Pa) as [g G]. rewrite upd_same. split; [|eauto 6].
    apply only_inside_upd; [eapply only_owner_inside; eauto | now left].
Qed.

Lemma inv_wake s a s' : inv s -> step s (DeliverWake a) = Some s' -> inv s'.
Proof.
  intros I H. pose proof (inv_queued _ I) as K. apply inv_split.
  apply step_wake in H as (Pa & M & ->). destruct (woken_shape _ I _ M) as (O & _ & W & Dz).
  unfold inv_owner, pendq in *; cbn. rewrite W, O, Dz in *. cbn in *. rewrite Nat.eqb_refl. split.
  - now apply queued_wake.
  - rewrite upd_same. split; [|eauto 6].
    apply only_inside_upd; [eapply only_owner_inside; eauto | now left].
Qed.

(* the lock changes hands: its holder has left, or its designated owner was hit by a signal *)
Lemma inv_release s : queued (ph s) (pendq s) (tick s) (grants s) (ntick s) ->
  depth s = 0 -> woken s = [] -> (forall a n, ph s a <> Inside n) -> inv (release s).
Proof.
  intros K Dz W NI. apply inv_split. destruct (release_keeps s) as (-> & -> & -> & -> & _ & ->).
  split; [exact K|]. unfold release, inv_owner. destruct (waiting s) as [|b r] eqn:Ew; cbn.
  - auto.
  - rewrite W. cbn. rewrite (proj2 (kA _ _ _ _ _ K b)) by (unfold pendq; rewrite W, Ew; now left).
    split; [|auto]. intros a n Ha. now apply NI in Ha.
Qed.

Lemma set_ph_release s a p : set_ph (release s) a p = release (set_ph s a p).
Proof. unfold release, set_ph. cbn. destruct (waiting s); reflexivity. Qed.

Lemma nobody_inside_upd s a x : inv s -> owner s = Some a -> (forall n, x <> Inside n) ->
  forall b n, upd (ph s) a x b <> Inside n.
Proof.
  intros I O Nx b n. unfold upd. destruct (Nat.eqb_spec b a) as [->|Nb]; [apply Nx|].
  intros Hb. apply Nb. eapply only_owner_inside; eauto.
Qed.

Lemma inv_exit s a s' : inv s -> step s (Exit a) = Some s' -> inv s'.
Proof.
  intros I H. pose proof (inv_queued _ I) as K.
  apply step_exit in H as (n & Pa & ->). destruct (inside_owner _ I _ _ Pa) as (O & D & _ & W).
  assert (Na : ~ In a (pendq s)) by (rewrite <- (iA _ I); congruence).
  cbn. rewrite D. destruct n as [|m]; cbn.
  - apply inv_release; unfold pendq in *; cbn; auto.
    + apply queued_rephase; [exact K | exact Na | discriminate].
    + apply nobody_inside_upd; [exact I | exact O | discriminate].
  - apply inv_split. unfold inv_owner, pendq in *. cbn. rewrite O.
    split; [apply queued_rephase; [exact K | exact Na | discriminate]|].
    destruct (inside_last_grant _ I _ _ Pa) as [g G]. rewrite upd_same. split; [|repeat split; eauto; lia].
    apply only_inside_upd; [eapply only_owner_inside; eauto | now left].
Qed.

Lemma inv_foreign s a s' : inv s -> step s (DeliverForeign a) = Some s' -> inv s'.
Proof.
  intros I H. pose proof (inv_queued _ I) as K.
  apply step_foreign in H as (Pa & ->). unfold unsubscribe, is_owner.
  destruct (mem a (woken s)) eqn:M; cbn.
  - (* the designated owner is hit: revoke its wake-up, pass ownership on *)
    apply mem_In in M. destruct (woken_shape _ I _ M) as (O & _ & W & Dz).
    rewrite O, Nat.eqb_refl, set_ph_release. unfold pendq in K. rewrite W in *.
    apply (queued_drop _ _ _ _ _ a Idle) in K; [|discriminate]. cbn in K. rewrite Nat.eqb_refl in K.
    apply inv_release; cbn; rewrite ?Nat.eqb_refl; auto.
    apply nobody_inside_upd; [exact I | exact O | discriminate].
  - (* an ordinary waiter is hit: it leaves the waiting list *)
    apply mem_false in M. apply inv_split.
    assert (No : owner s <> Some a).
    { intros O. destruct (owner_phase _ _ I O) as [(k & Pk & _)|(_ & W & _)]; [congruence|].
      apply M. rewrite W. now left. }
    assert (E : (match owner s with Some o => Nat.eqb o a | None => false end) = false).
    { destruct (owner s) as [o|]; [|reflexivity]. apply Nat.eqb_neq. congruence. }
    rewrite E. unfold pendq in *. cbn. rewrite <- (rem1_app_notin a _ _ M).
    split; [apply queued_drop; [exact K | discriminate]|].
    pose proof (iC _ I) as C. unfold inv_owner in *. cbn. destruct (owner s) as [o|] eqn:O.
    + destruct C as [C1 C2]. split; [apply only_inside_upd; [exact C1 | right; discriminate]|].
      rewrite upd_other by congruence. exact C2.
    + destruct (inv_free _ I O) as (_ & Wn & _). apply (iA _ I) in Pa. unfold pendq in Pa.
      rewrite Wn in Pa. apply in_app_or in Pa as [|[]]. contradiction.
Qed.

Lemma inv_step s t s' : inv s -> step s t = Some s' -> inv s'.
Proof.
  destruct t; [apply inv_request | apply inv_wake | apply inv_foreign | apply inv_exit].
Qed.

Theorem reachable_inv s : reachable s -> inv s.
Proof. induction 1; eauto using inv_init, inv_step. Qed.

Definition inside (s : st) (a : aid) : Prop := exists n, ph s a = Inside n.

(* at most one activity is inside the block, and it is the owner *)
Theorem mutex s : reachable s -> forall a b n m,
  ph s a = Inside n -> ph s b = Inside m -> a = b /\ owner s = Some a.
Proof.
  intros R a b n m Ha Hb. apply reachable_inv in R.
  split; [exact (inside_unique _ R _ _ _ _ Ha Hb) | apply (inside_owner _ R _ _ Ha)].
Qed.

Theorem reentrant_depth s : reachable s -> forall a n,
  ph s a = Inside n -> owner s = Some a /\ depth s = n /\ 1 <= n.
Proof. intros R a n Ha. apply reachable_inv in R. destruct (inside_owner _ R _ _ Ha); tauto. Qed.

Theorem reenter_immediate s a n : reachable s -> ph s a = Inside n ->
  exists s', step s (Request a) = Some s' /\ ph s' a = Inside (S n) /\ owner s' = Some a /\
             depth s' = S n /\ waiting s' = waiting s.
Proof.
  intros R Ha. apply reachable_inv in R. destruct (inside_owner _ R _ _ Ha) as (O & D & _).
  cbn. rewrite Ha, O, Nat.eqb_refl. eexists. split; [reflexivity|]. cbn. rewrite upd_same. auto.
Qed.

Theorem exit_inner_keeps s a n s' : reachable s -> ph s a = Inside (S (S n)) ->
  step s (Exit a) = Some s' ->
  owner s' = Some a /\ ph s' a = Inside (S n) /\ depth s' = S n /\ waiting s' = waiting s.
Proof.
  intros R Ha H. apply reachable_inv in R. destruct (inside_owner _ R _ _ Ha) as (O & D & _).
  apply step_exit in H as (k & Pk & ->). rewrite Ha in Pk. injection Pk as <-.
  cbn. rewrite D. cbn. rewrite upd_same. auto.
Qed.

(* leaving the outermost block - normally, by exception, cancellation, interruption or close - gives
   the lock to the oldest waiter (whose wake-up is then in flight), or frees it *)
Theorem exit_outermost_hands_off s a s' : reachable s -> ph s a = Inside 1 ->
  step s (Exit a) = Some s' ->
  ph s' a = Idle /\ owner s' = hd_error (waiting s) /\ depth s' = 0 /\
  woken s' = match waiting s with [] => [] | b :: _ => [b] end /\ waiting s' = tl (waiting s).
Proof.
  intros R Ha H. apply reachable_inv in R. destruct (inside_owner _ R _ _ Ha) as (O & D & _ & W).
  apply step_exit in H as (k & Pk & ->). rewrite Ha in Pk. injection Pk as <-.
  cbn. rewrite D. unfold release. cbn. rewrite W. destruct (waiting s); cbn; rewrite upd_same; auto.
Qed.

(* a signal that hits the designated owner before it was resumed passes ownership on *)
Theorem foreign_designated_hands_off s a s' : reachable s -> ph s a = Waiting -> owner s = Some a ->
  step s (DeliverForeign a) = Some s' ->
  ph s' a = Idle /\ owner s' = hd_error (waiting s) /\ depth s' = 0 /\
  woken s' = match waiting s with [] => [] | b :: _ => [b] end /\ waiting s' = tl (waiting s).
Proof.
  intros R Ha O H. apply reachable_inv in R.
  destruct (owner_phase _ _ R O) as [(k & Pk & _)|(_ & W & Z)]; [congruence|].
  apply step_foreign in H as (_ & ->). unfold unsubscribe. rewrite W. cbn.
  rewrite Nat.eqb_refl. cbn. unfold is_owner. cbn. rewrite O, Nat.eqb_refl. unfold release. cbn.
  destruct (waiting s); cbn; rewrite upd_same; auto.
Qed.

(* a signal that hits an ordinary waiter only withdraws its request *)
Theorem foreign_waiter_leaves s a s' : reachable s -> ph s a = Waiting -> owner s <> Some a ->
  step s (DeliverForeign a) = Some s' ->
  ph s' a = Idle /\ owner s' = owner s /\ depth s' = depth s /\ woken s' = woken s /\
  waiting s' = rem1 a (waiting s) /\ ~ In a (waiting s').
Proof.
  intros R Ha O H. apply reachable_inv in R.
  assert (M : mem a (woken s) = false).
  { apply mem_false. intros M. apply (woken_shape _ R) in M. tauto. }
  assert (No : is_owner s a = false).
  { unfold is_owner. destruct (owner s) as [o|]; auto. destruct (Nat.eqb_spec o a); congruence. }
  apply step_foreign in H as (_ & ->). unfold unsubscribe. rewrite M.
  unfold is_owner in *. cbn. rewrite No. cbn. rewrite upd_same. repeat split; auto.
  pose proof (iB _ R) as B. unfold pendq in B. apply NoDup_rem1 with (a := a) in B as [_ B].
  rewrite rem1_app_notin in B by (now apply mem_false). rewrite in_app_iff in B. tauto.
Qed.

Theorem free_iff_idle s : reachable s -> (owner s = None <-> forall a, ph s a = Idle).
Proof.
  intros R. apply reachable_inv in R. split.
  - intros O a. destruct (inv_free _ R O) as (_ & W1 & W2 & NI). destruct (ph s a) eqn:Pa; auto.
    + apply (iA _ R) in Pa. unfold pendq in Pa. rewrite W1, W2 in Pa. destruct Pa.
    + now apply NI in Pa.
  - intros Hi. destruct (owner s) as [o|] eqn:O; auto.
    destruct (owner_phase _ _ R O) as [(k & Pk & _)|(Pw & _)]; rewrite Hi in *; discriminate.
Qed.

(* ... and whenever it is not free, its owner can move: it is inside (and can leave) or its wake-up is
   in flight (and can be delivered) - ownership is never parked on an activity that will not run *)
Theorem owner_can_move s o : reachable s -> owner s = Some o ->
  (exists n, ph s o = Inside (S n) /\ step s (Exit o) <> None) \/
  (ph s o = Waiting /\ In o (woken s) /\ step s (DeliverWake o) <> None).
Proof.
  intros R O. apply reachable_inv in R.
  destruct (owner_phase _ _ R O) as [(n & Po & _ & L & _)|(Po & W & _)].
  - left. destruct n as [|n]; [lia|]. exists n. split; auto. cbn. rewrite Po. discriminate.
  - right. repeat split; auto.
    + rewrite W. now left.
    + cbn. rewrite Po, W. cbn. rewrite Nat.eqb_refl. discriminate.
Qed.

(* every waiter is either queued or has its wake-up in flight, never both: `__unsubscribe__`
   (revoke if scheduled, else list.remove) always finds what it looks for *)
Theorem unsubscribe_safe s a : reachable s -> ph s a = Waiting ->
  (In a (woken s) /\ ~ In a (waiting s)) \/ (In a (waiting s) /\ ~ In a (woken s)).
Proof.
  intros R Ha. apply reachable_inv in R. apply (iA _ R) in Ha. pose proof (iB _ R) as B.
  unfold pendq in *. apply in_app_or in Ha as [Ha|Ha]; [left|right]; split; auto; intros Hb.
  - exact (NoDup_app_disjoint _ _ _ B Ha Hb).
  - exact (NoDup_app_disjoint _ _ _ B Hb Ha).
Qed.

(* `available` asked by a running activity: true exactly when the lock is free or held by it *)
Theorem available_spec s a : reachable s -> ph s a <> Waiting ->
  (available s a = true <-> (forall b, ph s b = Idle) \/ inside s a).
Proof.
  intros R Ha. pose proof (free_iff_idle _ R) as F. apply reachable_inv in R.
  unfold available. destruct (owner s) as [o|] eqn:O.
  - split.
    + intros E. apply Nat.eqb_eq in E. subst o. right.
      destruct (owner_phase _ _ R O) as [(n & Pa & _)|(Pa & _)]; [now exists n | contradiction].
    + intros [Hi|[n Hn]].
      * apply F in Hi. discriminate.
      * destruct (inside_owner _ R _ _ Hn) as (O' & _). rewrite O in O'. injection O' as ->.
        apply Nat.eqb_refl.
  - split; auto. intros _. left. apply F. auto.
Qed.

Theorem available_predicts_request s a s' : reachable s -> step s (Request a) = Some s' ->
  (available s a = true -> inside s' a) /\ (available s a = false -> ph s' a = Waiting).
Proof.
  intros _ H. unfold available, inside.
  apply step_request in H as [(_ & -> & ->)|[(_ & (o & -> & No) & ->)|(n & _ & -> & ->)]];
    cbn; rewrite upd_same, ?Nat.eqb_refl, ?(proj2 (Nat.eqb_neq o a) No); split; eauto; discriminate.
Qed.

(* FIFO.  Every outermost request draws the next ticket (ticket_fresh); `grants` logs the tickets in
   the order in which activities got inside (grant_is_oldest).  The log is strictly increasing, and every
   request still outstanding (designated owner, then the waiting list in list order) is younger than
   every grant and they are in ticket order among themselves: grants happen in request order among
   the requests that were not withdrawn. *)
Theorem fifo_grant s : reachable s ->
  StronglySorted lt (grants s ++ map (tick s) (pendq s)) /\
  Forall (fun t => t < ntick s) (grants s ++ map (tick s) (pendq s)).
Proof.
  intros R. apply reachable_inv, inv_queued in R as [_ _ S N]. now split.
Qed.

Theorem ticket_fresh s a s' : step s (Request a) = Some s' -> ph s a = Idle ->
  tick s' a = ntick s /\ ntick s' = S (ntick s) /\ (forall b, b <> a -> tick s' b = tick s b).
Proof.
  intros H Pa. apply step_request in H as [(_ & _ & ->)|[(_ & _ & ->)|(n & Pn & _)]]; [| |congruence];
    cbn; rewrite upd_same; repeat split; auto; intros; now apply upd_other.
Qed.

Definition gets_inside (s s' : st) (a : aid) : Prop :=
  (forall n, ph s a <> Inside n) /\ exists n, ph s' a = Inside n.

(* a grant always goes to the OLDEST outstanding request (or to a fresh request on a lock nobody
   waits for), it is logged, and nothing else is ever logged *)
Theorem grant_is_oldest s t s' : reachable s -> step s t = Some s' ->
  (gets_inside s s' (actor t) ->
     grants s' = grants s ++ [tick s' (actor t)] /\
     ((pendq s = actor t :: pendq s') \/ (pendq s = [] /\ pendq s' = [] /\ t = Request (actor t)))) /\
  (~ gets_inside s s' (actor t) -> grants s' = grants s).
Proof.
  intros R H. apply reachable_inv in R. unfold gets_inside. destruct t as [a|a|a|a]; cbn [actor].
  - apply step_request in H as [(Pa & O & ->)|[(Pa & _ & ->)|(n & Pa & _ & ->)]]; cbn; rewrite ?upd_same.
    + destruct (inv_free _ R O) as (_ & W1 & W2 & _). unfold pendq. cbn. rewrite W1, W2. split; auto.
      intros N. exfalso. apply N. split; [congruence | eauto].
    + split; auto. intros [_ [k Hk]]. discriminate.
    + split; auto. intros [N _]. now apply N in Pa.
  - apply step_wake in H as (Pa & M & ->). destruct (woken_shape _ R _ M) as (_ & _ & W & _).
    unfold pendq. cbn. rewrite W. cbn. rewrite Nat.eqb_refl. split; auto.
    intros N. exfalso. apply N. rewrite upd_same. split; [congruence | eauto].
  - apply step_foreign in H as (_ & ->). cbn. rewrite upd_same.
    split; [intros [_ [k Hk]]; discriminate | intros _].
    destruct (is_owner _ a); rewrite ?grants_release; apply grants_unsubscribe.
  - apply step_exit in H as (n & Pa & ->). split; [intros [N _]; now apply N in Pa | intros _].
    cbn. destruct (Nat.eqb _ 0); rewrite ?grants_release; reflexivity.
Qed.

Lemma idle_can_request s a : inv s -> ph s a = Idle -> step s (Request a) <> None.
Proof.
  intros I Pa. cbn. rewrite Pa. destruct (owner s) as [o|] eqn:O; [|discriminate].
  destruct (Nat.eqb_spec o a) as [->|]; [|discriminate]. exfalso.
  destruct (owner_phase _ _ I O) as [(n & Pn & _)|(Pw & _)]; congruence.
Qed.

(* the environment discipline is the only thing that disables a transition: whatever the code could
   do next at the activity's suspension point is enabled in every reachable state *)
Theorem enabled_by_phase s a : reachable s ->
  match ph s a with
  | Idle => step s (Request a) <> None
  | Waiting => step s (DeliverForeign a) <> None
  | Inside n => step s (Request a) <> None /\ step s (Exit a) <> None
  end.
Proof.
  intros R. apply reachable_inv in R. destruct (ph s a) as [| |n] eqn:Pa.
  - exact (idle_can_request _ _ R Pa).
  - cbn. rewrite Pa. discriminate.
  - destruct (inside_owner _ R _ _ Pa) as (O & _ & L & _). cbn. rewrite Pa, O, Nat.eqb_refl.
    destruct n; [lia|]. split; discriminate.
Qed.

(* replay = run: a log accepted by `replay` is an execution of the protocol from `init`, hence every
   state it passes through is reachable and all theorems above apply to it *)
Lemma run_reachable l : forall s s', reachable s -> run s l = Some s' -> reachable s'.
Proof.
  induction l as [|t r IH]; cbn; intros s s' R H.
  - injection H as <-. auto.
  - destruct (step s t) eqn:E; [|discriminate]. eapply IH; [|eauto]. econstructor; eauto.
Qed.

Example ex_handoff :
  option_map project
    (run init [Request 0; Request 1; Request 2; Request 0; DeliverForeign 1; Exit 0; Exit 0])
  = Some (3, 0, [], [2]).
Proof. reflexivity. Qed.
