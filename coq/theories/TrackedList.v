(** A Tracked value and its comparisons (usim/_basics/tracked.py):
      tracked OP rhs           creates an AsyncComparison, registered as listener of the Tracked (in creation order)
      Condition.__subscribe__  to a comparison: holds -> schedule at once, else append to the comparison's waiting list
      Tracked.set(v)           value := v; then EVERY listener, in creation order, is told: one that holds wakes ALL its waiters
    Comparisons are identified by their creation index.  Theorems for every history: after each operation no comparison
    that holds has anybody parked; a set wakes exactly the waiters of the comparisons that hold afterwards, comparison by
    comparison in creation order, each list oldest first. *)
From Coq Require Import ZArith List Bool.
From Usim Require Import Tables ListFacts.
Import ListNotations.

Definition sub := (nat * nat)%type.                                      (* (waiter, token) *)
Record cmp := { c_op : cmpop; c_rhs : Z; c_wait : list sub }.
Inductive op := New (o : cmpop) (rhs : Z) | Sub (c w t : nat) | SetTo (v : Z).

Record tr := { value : Z; cmps : list cmp; scheduled : list sub }.

Definition c_holds (v : Z) (c : cmp) : bool := cmp_eval (c_op c) v (c_rhs c).

Fixpoint upd {A} (l : list A) (i : nat) (f : A -> A) : list A :=
  match l, i with
  | [], _ => []
  | x :: r, O => f x :: r
  | x :: r, S j => x :: upd r j f
  end.

Definition step (s : tr) (o : op) : tr :=
  match o with
  | New o rhs => {| value := value s; cmps := cmps s ++ [{| c_op := o; c_rhs := rhs; c_wait := [] |}]; scheduled := scheduled s |}
  | Sub c w t =>
      match nth_error (cmps s) c with
      | None => s
      | Some x =>
          if c_holds (value s) x
          then {| value := value s; cmps := cmps s; scheduled := scheduled s ++ [(w, t)] |}
          else {| value := value s; cmps := upd (cmps s) c (fun x => {| c_op := c_op x; c_rhs := c_rhs x; c_wait := c_wait x ++ [(w, t)] |});
                  scheduled := scheduled s |}
      end
  | SetTo v =>
      {| value := v;
         cmps := map (fun x => if c_holds v x then {| c_op := c_op x; c_rhs := c_rhs x; c_wait := [] |} else x) (cmps s);
         scheduled := scheduled s ++ flat_map (fun x => if c_holds v x then c_wait x else []) (cmps s) |}
  end.

Definition init (v : Z) : tr := {| value := v; cmps := []; scheduled := [] |}.
Definition run (v : Z) (ops : list op) : tr := fold_left step ops (init v).

Lemma run_snoc v ops o : run v (ops ++ [o]) = step (run v ops) o.
Proof. unfold run. rewrite fold_left_app. reflexivity. Qed.

Lemma upd_Forall {A} (P : A -> Prop) l i f : Forall P l -> (forall x, nth_error l i = Some x -> P (f x)) -> Forall P (upd l i f).
Proof.
  revert i. induction l as [|y r IH]; intros i H Hf; [destruct i; constructor|].
  apply Forall_cons_iff in H as [Hy Hr]. destruct i as [|j]; cbn; constructor; auto.
Qed.

Lemma upd_In_keep {A} (l : list A) i f x : In x l -> In x (upd l i f) \/ In (f x) (upd l i f).
Proof.
  revert i. induction l as [|z r IH]; intros i H; [destruct H|].
  destruct i as [|j]; cbn; destruct H as [->|H]; auto. destruct (IH j H); auto.
Qed.

Lemma upd_In_new {A} (l : list A) i f x : nth_error l i = Some x -> In (f x) (upd l i f).
Proof.
  revert i. induction l as [|z r IH]; intros i H; [destruct i; discriminate|].
  destruct i as [|j]; cbn in *; [injection H as ->|]; auto.
Qed.

Definition ok (s : tr) : Prop := Forall (fun x => c_holds (value s) x = true -> c_wait x = []) (cmps s).

Lemma step_ok s o : ok s -> ok (step s o).
Proof.
  unfold ok. intros H. destruct o as [o rhs|c w t|v]; cbn.
  - apply Forall_app. split; [exact H|]. constructor; [|constructor]. intros _. reflexivity.
  - destruct (nth_error (cmps s) c) as [x|] eqn:E; [|exact H].
    destruct (c_holds (value s) x) eqn:Hx; cbn; [exact H|].
    apply upd_Forall; [exact H|]. intros y Hy. rewrite E in Hy. injection Hy as <-.
    unfold c_holds in *. cbn. rewrite Hx. discriminate.
  - apply Forall_forall. intros y Hy. apply in_map_iff in Hy as [x [<- Hin]].
    destruct (c_holds v x) eqn:Hx; cbn.
    + intros _. reflexivity.
    + rewrite Hx. discriminate.
Qed.

Theorem never_parked_on_a_comparison_that_holds v ops : ok (run v ops).
Proof. unfold run. apply fold_left_inv; [exact step_ok|]. constructor. Qed.

Theorem set_wakes_the_waiters_of_every_true_comparison v0 ops v :
  let s := run v0 ops in let s' := run v0 (ops ++ [SetTo v]) in
  scheduled s' = scheduled s ++ flat_map (fun x => if c_holds v x then c_wait x else []) (cmps s) /\
  value s' = v /\ length (cmps s') = length (cmps s) /\
  (forall i x, nth_error (cmps s) i = Some x -> c_holds v x = false -> nth_error (cmps s') i = Some x).
Proof.
  rewrite run_snoc. cbn. repeat split.
  - apply map_length.
  - intros i x Hx Hf. rewrite nth_error_map, Hx. cbn. rewrite Hf. reflexivity.
Qed.

Example ex_tracked :
  let s := run 0 [New Ge 3; New Lt 2; New Ge 5; Sub 0 1 10; Sub 2 2 20; Sub 1 3 30; Sub 0 4 40; SetTo 4; Sub 2 5 50; SetTo 7;
                  Sub 1 6 60; SetTo 1]%Z in
  scheduled s = [(3, 30); (1, 10); (4, 40); (2, 20); (5, 50); (6, 60)] /\ map c_wait (cmps s) = [[]; []; []].
Proof. vm_compute. split; reflexivity. Qed.

Definition accounted (s : tr) (p : sub) : Prop := In p (scheduled s) \/ exists x, In x (cmps s) /\ In p (c_wait x).

Lemma step_keeps p s o : accounted s p -> accounted (step s o) p.
Proof.
  unfold accounted. intros H. destruct o as [o rhs|c w t|v]; cbn.
  - destruct H as [H|(x & Hx & Hp)]; [left; exact H|]. right. exists x. rewrite in_app_iff. auto.
  - destruct (nth_error (cmps s) c) as [x0|]; [|exact H].
    destruct (c_holds (value s) x0); cbn.
    + destruct H as [H|H]; [left; rewrite in_app_iff; auto|right; exact H].
    + destruct H as [H|(x & Hx & Hp)]; [left; exact H|]. right.
      destruct (upd_In_keep _ c (fun x => {| c_op := c_op x; c_rhs := c_rhs x; c_wait := c_wait x ++ [(w, t)] |}) x Hx) as [K|K].
      * exists x. auto.
      * eexists. split; [exact K|]. cbn. rewrite in_app_iff. auto.
  - destruct H as [H|(x & Hx & Hp)]; [left; rewrite in_app_iff; auto|].
    destruct (c_holds v x) eqn:Hh.
    + left. rewrite in_app_iff. right. apply in_flat_map. exists x. split; [exact Hx|]. rewrite Hh. exact Hp.
    + right. exists x. split; [|exact Hp]. apply in_map_iff. exists x. rewrite Hh. auto.
Qed.

Lemma step_new s c w t x : nth_error (cmps s) c = Some x -> accounted (step s (Sub c w t)) (w, t).
Proof.
  intros E. unfold accounted. cbn. rewrite E. destruct (c_holds (value s) x); cbn.
  - left. rewrite in_app_iff. cbn. auto.
  - right. eexists. split; [exact (upd_In_new _ _ _ _ E)|]. cbn. rewrite in_app_iff. cbn. auto.
Qed.

Definition valid_subs (v : Z) (ops : list op) : list sub :=
  (fix go (s : tr) (ops : list op) : list sub :=
     match ops with
     | [] => []
     | o :: r => (match o with
                  | Sub c w t => match nth_error (cmps s) c with Some _ => [(w, t)] | None => [] end
                  | _ => []
                  end) ++ go (step s o) r
     end) (init v) ops.

Theorem nobody_is_lost v ops p : In p (valid_subs v ops) -> accounted (run v ops) p.
Proof.
  unfold run, valid_subs. generalize (init v) as s.
  induction ops as [|o r IH]; intros s H; cbn in *; [destruct H|].
  apply in_app_iff in H as [H|H]; [|apply IH; exact H].
  apply fold_left_inv; [exact (step_keeps p)|].
  destruct o as [o rhs|c w t|v0]; try contradiction.
  destruct (nth_error (cmps s) c) as [x0|] eqn:E; [|contradiction].
  destruct H as [<-|[]]. exact (step_new _ _ _ _ _ E).
Qed.
