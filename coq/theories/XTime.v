(** Extended time: usim times are numbers that may be +infinity (`time >= inf`, `time + inf`). *)
From Coq Require Import ZArith Bool Lia.
Local Open Scope Z_scope.

Inductive xtime := Fin (z : Z) | PInf.

Definition xleb (a b : xtime) : bool :=
  match a, b with
  | _, PInf => true
  | PInf, Fin _ => false
  | Fin x, Fin y => x <=? y
  end.
Definition xltb (a b : xtime) : bool :=
  match a, b with
  | PInf, _ => false
  | Fin _, PInf => true
  | Fin x, Fin y => x <? y
  end.
Definition xeqb (a b : xtime) : bool :=
  match a, b with
  | PInf, PInf => true
  | Fin x, Fin y => x =? y
  | _, _ => false
  end.
(** float addition restricted to what occurs: finite + finite, anything + inf = inf *)
Definition xadd (a b : xtime) : xtime :=
  match a, b with
  | Fin x, Fin y => Fin (x + y)
  | _, _ => PInf
  end.
(** a - b for finite values (used by interval); inf - finite = inf; _ - inf is not used (nan) *)
Definition xsub (a b : xtime) : xtime :=
  match a, b with
  | Fin x, Fin y => Fin (x - y)
  | _, _ => PInf
  end.

Definition xle (a b : xtime) : Prop := xleb a b = true.
Definition xlt (a b : xtime) : Prop := xltb a b = true.

Lemma xeqb_eq a b : xeqb a b = true <-> a = b.
Proof.
  destruct a, b; cbn; try (split; [discriminate | intros [=]]); [|tauto].
  rewrite Z.eqb_eq. split; [intros -> | intros [=]]; auto.
Qed.
Lemma xeqb_false a b : xeqb a b = false -> a <> b.
Proof. intros H E. apply xeqb_eq in E. congruence. Qed.

Lemma xltb_negb a b : xltb a b = negb (xleb b a).
Proof. destruct a, b; cbn; auto. apply Z.ltb_antisym. Qed.
Lemma xleb_negb a b : xleb a b = negb (xltb b a).
Proof. destruct a, b; cbn; auto. apply Z.leb_antisym. Qed.
Lemma xltb_xleb_false a b : xltb a b = true -> xleb b a = false.
Proof. rewrite xleb_negb. intros ->. reflexivity. Qed.
Lemma xleb_false_xltb a b : xleb a b = false -> xltb b a = true.
Proof. rewrite xleb_negb. apply negb_false_iff. Qed.
Lemma xltb_false_xleb a b : xltb a b = false -> xleb b a = true.
Proof. rewrite xltb_negb. apply negb_false_iff. Qed.

Lemma xle_refl a : xle a a.
Proof. destruct a; [apply Z.leb_refl | reflexivity]. Qed.
Lemma xle_trans a b c : xle a b -> xle b c -> xle a c.
Proof. unfold xle. destruct a, b, c; cbn; auto; try discriminate. rewrite !Z.leb_le. lia. Qed.
Lemma xlt_le a b : xlt a b -> xle a b.
Proof. unfold xlt, xle. destruct a, b; cbn; auto. rewrite Z.ltb_lt, Z.leb_le. lia. Qed.
Lemma xlt_le_trans a b c : xlt a b -> xle b c -> xlt a c.
Proof. unfold xlt, xle. destruct a, b, c; cbn; auto; try discriminate. rewrite Z.ltb_lt, Z.leb_le, Z.ltb_lt. lia. Qed.
Lemma xle_lt_trans a b c : xle a b -> xlt b c -> xlt a c.
Proof. unfold xlt, xle. destruct a, b, c; cbn; auto; try discriminate. rewrite Z.ltb_lt, Z.leb_le, Z.ltb_lt. lia. Qed.
Lemma xlt_trans a b c : xlt a b -> xlt b c -> xlt a c.
Proof. intros H1 H2. exact (xlt_le_trans _ _ _ H1 (xlt_le _ _ H2)). Qed.
Lemma xlt_irrefl a : ~ xlt a a.
Proof. unfold xlt. rewrite xltb_negb, (xle_refl a). discriminate. Qed.
Lemma xlt_neq a b : xlt a b -> a <> b.
Proof. intros H E. subst. exact (xlt_irrefl _ H). Qed.
Lemma xle_antisym a b : xle a b -> xle b a -> a = b.
Proof. unfold xle. destruct a, b; cbn; auto; try discriminate. rewrite !Z.leb_le. intros. f_equal. lia. Qed.
Lemma xle_total a b : xle a b \/ xlt b a.
Proof. unfold xle, xlt. rewrite xltb_negb. destruct (xleb a b); auto. Qed.
Lemma xle_neq_lt a b : xle a b -> a <> b -> xlt a b.
Proof.
  intros H N. destruct (xle_total b a) as [H'|H']; [|exact H']. destruct N. apply xle_antisym; assumption.
Qed.
(** the third case of a three-way comparison [xltb k k'], [xeqb k k'] (as in [wq_push]) *)
Lemma xlt_of_ltb_eqb_false k k' : xltb k k' = false -> xeqb k k' = false -> xlt k' k.
Proof.
  intros L E. apply xle_neq_lt; [exact (xltb_false_xleb _ _ L)|]. intros ->. exact (xeqb_false _ _ E eq_refl).
Qed.

(** positive delay (the `delay > 0` usage assertion of Loop.schedule) *)
Definition xpos (d : xtime) : bool := xltb (Fin 0) d.
Lemma xadd_pos_lt t d : xpos d = true -> t <> PInf -> xlt t (xadd t d).
Proof. unfold xpos, xlt. destruct t, d; cbn; auto; try congruence. rewrite !Z.ltb_lt. lia. Qed.
Lemma xadd_pos_le t d : xpos d = true -> xle t (xadd t d).
Proof. unfold xpos, xle. destruct t, d; cbn; auto. rewrite Z.ltb_lt, Z.leb_le. lia. Qed.
