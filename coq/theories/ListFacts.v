(** Facts about lists that several files of the development need and the standard library of 8.16 lacks. *)
From Coq Require Import List Sorted PeanoNat.
Import ListNotations.

(** The induction behind every "for all histories of operations" theorem. *)
Lemma fold_left_inv {S O} (step : S -> O -> S) (P : S -> Prop) :
  (forall s o, P s -> P (step s o)) -> forall ops s, P s -> P (fold_left step ops s).
Proof. intros H ops. induction ops; cbn; auto. Qed.

Lemma filter_all {A} (f : A -> bool) l : (forall x, In x l -> f x = true) -> filter f l = l.
Proof.
  induction l as [|a l IH]; cbn; intros H; [reflexivity|].
  rewrite (H a (or_introl eq_refl)), IH; auto.
Qed.

Lemma filter_none {A} (f : A -> bool) l : (forall x, In x l -> f x = false) -> filter f l = [].
Proof.
  induction l as [|a l IH]; cbn; intros H; [reflexivity|].
  rewrite (H a (or_introl eq_refl)), IH; auto.
Qed.

Lemma existsb_false_In {A} (f : A -> bool) l x : existsb f l = false -> In x l -> f x = false.
Proof. intros E X. destruct (f x) eqn:F; [|reflexivity]. rewrite <- E. symmetry. apply existsb_exists. eauto. Qed.

Lemma nth_error_snoc {A} (l : list A) x j y :
  nth_error (l ++ [x]) j = Some y -> nth_error l j = Some y \/ (j = length l /\ y = x).
Proof.
  intros H. destruct (Nat.lt_ge_cases j (length l)) as [L|G].
  - left. now rewrite nth_error_app1 in H.
  - right. rewrite nth_error_app2 in H by assumption.
    destruct (j - length l) as [|[|m]] eqn:E; cbn in H; try discriminate.
    injection H as <-. split; [|reflexivity]. apply Nat.le_antisymm; [apply Nat.sub_0_le|]; assumption.
Qed.

Lemma NoDup_snoc {A} (l : list A) x : NoDup l -> ~ In x l -> NoDup (l ++ [x]).
Proof. intros N I. apply (NoDup_Add (Add_app x l [])). now rewrite app_nil_r. Qed.

Lemma StronglySorted_app {A} (R : A -> A -> Prop) a b :
  StronglySorted R (a ++ b) <->
  StronglySorted R a /\ StronglySorted R b /\ (forall x y, In x a -> In y b -> R x y).
Proof.
  induction a as [|x a IH]; cbn.
  - split; [intros H; split; [constructor | split; [assumption | contradiction]] | tauto].
  - split.
    + intros H. apply StronglySorted_inv in H as [H F]. apply IH in H as (Ha & Hb & Hab).
      apply Forall_app in F as [Fa Fb]. split; [constructor; assumption | split; [assumption|]].
      intros u v [<-|U] V; [exact (proj1 (Forall_forall _ _) Fb v V) | auto].
    + intros (Ha & Hb & Hab). apply StronglySorted_inv in Ha as [Ha F]. constructor.
      * apply IH; auto.
      * apply Forall_app. split; [assumption|]. apply Forall_forall. auto.
Qed.

Lemma StronglySorted_impl {A} (R Q : A -> A -> Prop) l :
  (forall x y, In x l -> In y l -> R x y -> Q x y) -> StronglySorted R l -> StronglySorted Q l.
Proof.
  induction 2 as [|x l S IH F]; constructor.
  - apply IH. intros; apply H; cbn; auto.
  - rewrite Forall_forall in *. intros y Y. apply H; cbn; auto.
Qed.

Lemma StronglySorted_filter {A} (R : A -> A -> Prop) f l : StronglySorted R l -> StronglySorted R (filter f l).
Proof.
  induction 1 as [|x l S IH F]; cbn; [constructor|]. destruct (f x); [constructor|]; auto.
  rewrite Forall_forall in *. intros y Y. apply filter_In in Y. apply F, Y.
Qed.
