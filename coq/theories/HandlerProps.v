(** C15 - the thread-local current loop of Handler.v: threads do not influence each other, and properly nested
    [assign] contexts restore the slot of their thread. *)
From Coq Require Import List PeanoNat.
From Usim Require Import Handler.
Import ListNotations.

Lemma upd_same h t s : upd h t s t = s.
Proof. unfold upd. now rewrite Nat.eqb_refl. Qed.
Lemma upd_other h t s t' : t' <> t -> upd h t s t' = h t'.
Proof. unfold upd. intros H. apply Nat.eqb_neq in H. now rewrite H. Qed.

Theorem thread_independent h o t' : t' <> op_thread o -> hstep h o t' = h t'.
Proof.
  destruct o as [t l|t]; cbn; intros H.
  - apply upd_other. exact H.
  - destruct (saved (h t)); [reflexivity | apply upd_other; exact H].
Qed.

Theorem threads_independent ops : forall h t',
  Forall (fun o => op_thread o <> t') ops -> hrun h ops t' = h t'.
Proof.
  unfold hrun. induction ops as [|o ops IH]; cbn; intros h t' H; [reflexivity|].
  apply Forall_cons_iff in H as [Ho Hr]. rewrite (IH _ _ Hr). apply thread_independent, not_eq_sym, Ho.
Qed.

Definition stack (s : slot) : list (option loopid) := cur s :: saved s.

Lemma stack_inj s1 s2 : stack s1 = stack s2 -> s1 = s2.
Proof. destruct s1, s2. unfold stack. cbn. intros H. inversion H. reflexivity. Qed.

Lemma balanced_pops t ops : forall d h,
  Forall (fun o => op_thread o = t) ops ->
  balanced_from d ops = Some 0 -> d <= length (saved (h t)) ->
  stack (hrun h ops t) = skipn d (stack (h t)).
Proof.
  unfold hrun. induction ops as [|o ops IH]; intros d h Ht Hb Hl.
  - cbn in Hb. inversion Hb; subst. reflexivity.
  - apply Forall_cons_iff in Ht. destruct Ht as [Ho Hr].
    destruct o as [t' l|t']; cbn in Ho; subst t'; cbn [fold_left hstep].
    + cbn in Hb. rewrite (IH (S d)); auto.
      * rewrite upd_same. reflexivity.
      * rewrite upd_same. apply le_n_S, Hl.
    + cbn in Hb. destruct d as [|d']; [discriminate|].
      destruct (saved (h t)) as [|s r] eqn:Es; [destruct (Nat.nle_succ_0 _ Hl)|].
      rewrite (IH d'); auto.
      * rewrite upd_same. unfold stack. rewrite Es. reflexivity.
      * rewrite upd_same. apply le_S_n, Hl.
Qed.

(** the exit is a [finally], so normal and exceptional exits are the same operation *)
Theorem assign_restores t ops h :
  Forall (fun o => op_thread o = t) ops -> balanced_from 0 ops = Some 0 -> hrun h ops t = h t.
Proof.
  intros Ht Hb. apply stack_inj. exact (balanced_pops t ops 0 h Ht Hb (Nat.le_0_l _)).
Qed.

Lemma balanced_app_exit t inner : forall d k,
  balanced_from d inner = Some k -> balanced_from (S d) (inner ++ [Exit t]) = Some k.
Proof.
  induction inner as [|o r IH]; cbn; intros d k H; [exact H|].
  destruct o as [t' l|t']; [|destruct d as [|d']; [discriminate|]]; apply IH, H.
Qed.

(** after a run, however it ended and whatever ran nested inside, the thread sees no simulation again; after a nested
    run the enclosing simulation is current again *)
Corollary after_run_restored t l inner h :
  Forall (fun o => op_thread o = t) inner -> balanced_from 0 inner = Some 0 ->
  hrun h (Enter t l :: inner ++ [Exit t]) t = h t.
Proof.
  intros Ht Hb. apply assign_restores.
  - constructor; [reflexivity|]. apply Forall_app. split; [exact Ht | constructor; [reflexivity | constructor]].
  - cbn. apply balanced_app_exit. exact Hb.
Qed.

Corollary after_run_missing t l inner :
  Forall (fun o => op_thread o = t) inner -> balanced_from 0 inner = Some 0 ->
  cur (hrun hinit (Enter t l :: inner ++ [Exit t]) t) = None.
Proof. intros Ht Hb. rewrite after_run_restored by assumption. reflexivity. Qed.

Lemma during_run_visible h t l : cur (hstep h (Enter t l) t) = Some l.
Proof. cbn. rewrite upd_same. reflexivity. Qed.

Example nested_example :
  observe hinit [Enter 0 7; Enter 1 8; Enter 0 9; Exit 0; Exit 1; Exit 0]
  = [Some 7; Some 8; Some 9; Some 7; None; None].
Proof. reflexivity. Qed.
