(* Proofs over ScopeProto: invariants of all reachable states of one scope instance. *)
Require Import List Bool Arith Lia.
Import ListNotations.
From Usim Require Import ListFacts ScopeProto.

Lemma nth_error_upd : forall A l i j (x : A),
  nth_error (upd i x l) j = if Nat.eqb i j then (match nth_error l j with Some _ => Some x | None => None end)
                            else nth_error l j.
Proof.
  induction l; intros.
  - simpl. destruct j; simpl; destruct (Nat.eqb i _); reflexivity.
  - destruct i, j; simpl; auto.
Qed.
Lemma length_upd : forall A l i (x : A), length (upd i x l) = length l.
Proof. induction l; destruct i; simpl; auto. Qed.
Lemma In_upd : forall A l i (x y : A), In y (upd i x l) -> y = x \/ In y l.
Proof.
  induction l; simpl; intros i x y H; auto. destruct i; simpl in H; destruct H as [H|H]; auto.
  apply IHl in H. tauto.
Qed.
Lemma existsb_upd_same : forall A (g : A -> bool) l i c x,
  nth_error l i = Some c -> g x = g c -> existsb g (upd i x l) = existsb g l.
Proof.
  induction l; destruct i; simpl; intros; try discriminate.
  - inversion H; subst. now rewrite H0.
  - f_equal. eauto.
Qed.

Definition cause_of (p : phase) : option cause :=
  match p with Closing c | Exited c _ => Some c | _ => None end.
Definition isexited (p : phase) : bool := match p with Exited _ _ => true | _ => false end.
Definition graceful (p : phase) : bool := match cause_of p with Some CGraceful => true | _ => false end.

(* Per status of a child, while the owner is in phase [p]: a graceful shutdown waits for a live child unless it is
   volatile; only a closed scope refuses payloads; a non-volatile child is closed by the scope only on a non-graceful
   exit, a volatile one only after the body. *)
Definition cok (p : phase) (c : child) : Prop :=
  match st c with
  | Created | Running => listed c = true /\ isexited p = false /\ (graceful p = true -> vol c = true)
  | Done Discarded => active p = false /\ ran c = false /\ listed c = false /\ late c = false
  | Done ClosedScope => active p = false /\ graceful p = false /\ vol c = false
  | Done ClosedVolatile => active p = false /\ vol c = true
  | Done _ => True
  end.

(* A queued signal of the owner's own - its cancellation or the until-interrupt - pins the clock: time stands at [t]
   (Tick is disabled while the signal is queued and inside the synchronous _close_scope) until the block is left,
   and it is left at [t]. *)
Definition pinned (s : state) (t : nat) : Prop :=
  match ph s with
  | Exited _ _ => exited_at s = Some t
  | Closing _ => now s = t
  | _ => now s = t /\ (cs s = Scheduled \/ intr s = IScheduled)
  end.

(* the until-interrupt pins the clock from the moment it is scheduled *)
Definition tinv (s : state) : Prop :=
  match fired_at s with Some t => pinned s t | None => intr s <> IScheduled end.

Definition oinv (s : state) : Prop :=
  match ph s with Exited c o => o = outcome_of c (existsb isfailed (kids s)) | _ => True end.

(* volatile children are closed last *)
Definition vlast (l : list child) : Prop :=
  forall x, In x l -> st x = Done ClosedVolatile -> forall y, In y l -> nv_done y = true.

Record inv (s : state) : Prop := mkInv {
  i_int : interruptable s = active (ph s);
  i_inert : active (ph s) = false -> inert (intr s) = true;
  i_kids : forall c, In c (kids s) -> cok (ph s) c;
  i_vlast : vlast (kids s);
  i_time : tinv s;
  i_out : oinv s
}.

(* [vd]: every non-volatile child is done *)
Inductive cstep (p : phase) (vd : bool) (c : child) : child -> Prop :=
  | cs_start : isclosing p = false -> st c = Created -> cstep p vd c (mkChild (vol c) Running (listed c) true (late c))
  | cs_reap : isclosing p = false -> isdone c && listed c = true ->
              cstep p vd c (mkChild (vol c) (st c) false (ran c) (late c))
  | cs_step : isclosing p = false -> st c = Running -> cstep p vd c c
  | cs_fin : forall h, isclosing p = false -> st c = Running -> (h = Success \/ h = Failed \/ h = CancelledInd) ->
             cstep p vd c (fin h c)
  | cs_cancel_created : st c = Created -> cstep p vd c (set_st (Done CancelledInd) c)
  | cs_close_created : isclosing p = true -> st c = Created -> vol c && negb vd = false ->
                       cstep p vd c (set_st (Done (closedhow c)) c)
  | cs_close_running : forall d : bool, isclosing p = true -> st c = Running -> vol c && negb vd = false ->
                       cstep p vd c (fin (if d then Failed else closedhow c) c).

Lemma closing_inactive : forall p, isclosing p = true -> active p = false.
Proof. destruct p; try discriminate; reflexivity. Qed.

Lemma cstep_cok : forall p vd c c', cstep p vd c c' -> cok p c -> cok p c'.
Proof.
  intros p vd c c' H; destruct H as [C S|C S|C S|h C S Hh|S|C S V|d C S V]; unfold cok; simpl; try rewrite S; auto.
  1: unfold isdone in S; destruct (st c) as [| |[]]; try discriminate; simpl; intuition.
  1: destruct Hh as [->|[->| ->]]; auto.
  (* closed by the scope: as volatile, or else the exit is not graceful since the child was awaited *)
  all: intros (_&_&G); apply closing_inactive in C; try (destruct d; auto); unfold closedhow;
    destruct (vol c) eqn:Vc; auto; repeat split; auto; destruct (graceful p); auto; discriminate G; auto.
Qed.

Lemma cstep_spec : forall p vd c c', cstep p vd c c' ->
  vol c' = vol c /\
  (isdone c = true -> st c' = st c /\ ran c' = ran c) /\
  (isdone c = false -> st c' = Done ClosedVolatile -> isclosing p = true /\ vd = true /\ vol c = true).
Proof.
  intros p vd c c' H; destruct H as [C S|C S|C S|h C S Hh|S|C S V|d C S V]; unfold isdone, closedhow; simpl; try rewrite S;
    (split; [reflexivity|split; [auto; discriminate|]]); try discriminate.
  - intros E _. unfold isdone in S. rewrite E in S. discriminate.
  - intros _ E. destruct Hh as [->|[->| ->]]; discriminate.
  - destruct (vol c); [|discriminate]. destruct vd; [auto|discriminate].
  - destruct (vol c), d; try discriminate. destruct vd; [auto|discriminate].
Qed.
Lemma cstep_nvdone : forall p vd c c', cstep p vd c c' -> nv_done c = true -> nv_done c' = true.
Proof.
  intros p vd c c' H. destruct (cstep_spec _ _ _ _ H) as (V&D&_). unfold nv_done, isdone in *. rewrite V.
  destruct (vol c); auto. simpl. intros X. destruct (D X) as [-> _]. exact X.
Qed.

Lemma cok_phase : forall p p' c, cok p c ->
  (active p' = true -> active p = true) ->
  (isexited p' = true -> isexited p = true \/ closed_ok c = true) ->
  (graceful p' = true -> graceful p = true \/ (active p = true /\ pending_nv c = false)) ->
  cok p' c.
Proof.
  intros p p' c H A E G. unfold cok, closed_ok, pending_nv, isdone in *.
  destruct (st c) as [| |[]]; auto.
  all: try (destruct H as (L&X&V); rewrite L in *; simpl in *; repeat split; auto;
            [destruct (isexited p'); auto; destruct E; auto; congruence
            |intros Gp; destruct (G Gp) as [?|[_ ?]]; auto; destruct (vol c); auto; discriminate]).
  all: destruct (active p') eqn:Ap; [rewrite A in H by auto; destruct H; discriminate|].
  - destruct H as (Ia & Gr & V). repeat split; auto. destruct (graceful p'); auto. destruct G as [?|[? _]]; congruence.
  - intuition.
  - intuition.
Qed.
(* the child that do() records *)
Definition spawned (s : state) (v : bool) : child :=
  if interruptable s then accepted v (match ph s with Body => false | _ => true end) else refused v.

Lemma cok_spawn : forall s v, interruptable s = active (ph s) -> cok (ph s) (spawned s v).
Proof.
  intros s v A. unfold spawned. rewrite A. destruct (active (ph s)) eqn:Ap; unfold cok; simpl; auto.
  destruct (ph s); try discriminate; simpl; repeat split; auto; discriminate.
Qed.
Lemma cok_exited_done : forall c0 o c, cok (Exited c0 o) c -> isdone c = true.
Proof. unfold cok, isdone. intros c0 o c. destruct (st c) as [| |[]]; auto; intros (_&X&_); discriminate. Qed.

Lemma kids_sched_cs : forall s, kids (sched_cs s) = kids s.
Proof. intros; unfold sched_cs; destruct (interruptable s); reflexivity. Qed.

Inductive ostep (s : state) : label -> state -> Prop :=
  | o_fire : intr s = Subscribed -> ostep s Fire (set_fired (set_intr IScheduled s))
  | o_body : ph s = Body -> ostep s BodyStep (body_work s)
  | o_return : ph s = Body -> ostep s BodyReturn (set_ph SetDone s)
  | o_raise : ph s = Body -> ostep s BodyRaise (enter_closing CBodyExc s)
  | o_cancel : active (ph s) = true -> cs s = Scheduled -> ostep s DeliverCancelSelf (enter_closing COwnCancel s)
  | o_intr : active (ph s) = true -> intr s = IScheduled ->
             ostep s DeliverInterrupt (set_intr IDelivered (enter_closing COwnInterrupt s))
  | o_foreign : active (ph s) = true -> ostep s DeliverForeign (enter_closing CForeign s)
  | o_await : ph s = SetDone \/ ph s = AwaitChildren -> existsb pending_nv (kids s) = true ->
              ostep s AwaitStep (set_ph AwaitChildren s)
  | o_graceful : ph s = SetDone \/ ph s = AwaitChildren -> existsb pending_nv (kids s) = false ->
                 ostep s AwaitStep (enter_closing CGraceful s)
  | o_wait : ph s = AwaitChildren -> ostep s AwaitWait s
  | o_finish : forall c, ph s = Closing c -> forallb closed_ok (kids s) = true ->
               ostep s FinishClose (set_exited (set_ph (Exited c (outcome_of c (existsb isfailed (kids s)))) s))
  | o_tick : isclosing (ph s) = false -> cs s <> Scheduled -> intr s <> IScheduled -> ostep s Tick (tick s).

(* the last disjunct: a failing child of an open scope queues the owner's cancellation *)
Definition owner_kept (s s' : state) : Prop :=
  ph s' = ph s /\ interruptable s' = interruptable s /\ intr s' = intr s /\ bsteps s' = bsteps s /\
  now s' = now s /\ fired_at s' = fired_at s /\ exited_at s' = exited_at s /\
  (cs s' = cs s \/ (interruptable s = true /\ cs s' = Scheduled)).

Lemma step_cases : forall s l s', step s l = Some s' ->
  (owner_kept s s' /\
   ((exists v, l = Spawn v /\ cwork s' = cwork s /\ kids s' = kids s ++ [spawned s v]) \/
    (exists i c c', nth_error (kids s) i = Some c /\ cstep (ph s) (forallb nv_done (kids s)) c c' /\
                    kids s' = upd i c' (kids s) /\ (isdone c = true -> cwork s' = cwork s)))) \/
  (kids s' = kids s /\ cwork s' = cwork s /\ ostep s l s').
Proof.
  (* every guard of [step] is decided, with its equation kept *)
  intros s l s' H; destruct l; unfold step, on_child, running_only in H;
    repeat match goal with
    | H' : match ?x with _ => _ end = Some _ |- _ => destruct x eqn:?; try discriminate H'
    | H' : Some _ = Some _ |- _ => inversion H'; subst; clear H'
    end;
    try match goal with |- context [if existsb ?f ?l then _ else _] => destruct (existsb f l) eqn:? end.
  all: try (right; split; [reflexivity|split; [reflexivity|constructor; solve [auto|congruence]]]).
  all: left; split;
    [unfold owner_kept, sched_cs; simpl; try destruct (interruptable s) eqn:?; simpl; repeat split; auto|].
  1: left; exists v; auto.
  all: right; match goal with |- context [upd ?i ?c' _] => exists i; eexists; exists c' end;
    split; [eassumption|split; [constructor; solve [simpl; auto]|split; [simpl; rewrite ?kids_sched_cs; reflexivity|]]].
  (* no payload code runs for a child that is done *)
  all: solve [intros _; reflexivity | unfold isdone; match goal with Q : st _ = _ |- _ => rewrite Q end; discriminate].
Qed.

Lemma inert_unsub : forall i, inert (unsub i) = true.
Proof. destruct i; reflexivity. Qed.

Lemma step_int : forall s l s', inv s -> step s l = Some s' ->
  interruptable s' = active (ph s') /\ (active (ph s') = false -> inert (intr s') = true).
Proof.
  intros s l s' [A1 A2 _ _ _ _] H. destruct (step_cases _ _ _ H) as [[(P&Ia&In&_) _]|(_&_&O)].
  - rewrite P, Ia, In. auto.
  - destruct O as [F|B|B|B|A C|A C|A|[B|B] E|[B|B] E|B|c B C|C N1 N2]; simpl; rewrite ?inert_unsub; auto.
    1: rewrite F in A2; split; auto.
    all: rewrite B in A1, A2; split; auto.
Qed.

Lemma pinned_step : forall s l s' t, pinned s t -> step s l = Some s' -> pinned s' t.
Proof.
  intros s l s' t A H. unfold pinned in *.
  destruct (step_cases _ _ _ H) as [[(P&_&In&_&Nw&_&X&C) _]|(_&_&O)].
  - rewrite P, In, Nw, X. destruct (ph s); auto.
    all: destruct A as [A1 [A2|A2]]; split; auto; left; destruct C as [C|[_ C]]; congruence.
  - destruct O as [F|B|B|B|Ac C|Ac C|Ac|[B|B] E|[B|B] E|B|c B C|C N1 N2]; simpl; auto;
      try (rewrite B in A; simpl in A; try destruct A; congruence).
    all: destruct (ph s); try discriminate; try exact A; destruct A as [A1 [A2|A2]]; auto; congruence.
Qed.

Lemma unsub_not_scheduled : forall i, i <> IScheduled -> unsub i <> IScheduled.
Proof. destruct i; simpl; congruence. Qed.

Lemma step_time : forall s l s', inv s -> step s l = Some s' -> tinv s'.
Proof.
  intros s l s' [_ A2 _ _ T _] H. unfold tinv in *.
  destruct (step_cases _ _ _ H) as [[(_&_&In&_&_&F&_) _]|(_&_&O)].
  - rewrite F. destruct (fired_at s) as [t|]; [exact (pinned_step _ _ _ _ T H)|rewrite In; exact T].
  - destruct O as [Fi|B|B|B|A C|A C|A|[B|B] E|[B|B] E|B|c B C|C N1 N2]; simpl.
    (* Fire needs a subscription, which only an active scope has *)
    1: unfold pinned; simpl; destruct (ph s); simpl in A2; auto; rewrite Fi in A2; discriminate (A2 eq_refl).
    all: destruct (fired_at s) as [t|]; [exact (pinned_step _ _ _ _ T H)|]; try exact T; try discriminate.
    all: apply unsub_not_scheduled, T.
Qed.

(* the owner only moves forward: Body, SetDone / AwaitChildren, Closing c, Exited c _ *)
Definition phase_le (p p' : phase) : Prop :=
  match p with
  | Body => True
  | SetDone | AwaitChildren => p' <> Body
  | Closing c => cause_of p' = Some c
  | Exited _ _ => p' = p
  end.
Lemma phase_le_refl : forall p, phase_le p p.
Proof. destruct p; simpl; auto; discriminate. Qed.
Lemma phase_le_trans : forall p q r, phase_le p q -> phase_le q r -> phase_le p r.
Proof.
  destruct p, q; simpl; intros r H1 H2; try discriminate; try congruence; destruct r; simpl in *; congruence.
Qed.
Lemma phase_le_facts : forall p p', phase_le p p' ->
  (p <> Body -> p' <> Body) /\ (active p' = true -> active p = true).
Proof.
  destruct p; simpl; intros p' H; repeat split; auto; try discriminate; try congruence.
  all: destruct p'; simpl in *; congruence.
Qed.

Lemma step_phase : forall s l s', step s l = Some s' ->
  phase_le (ph s) (ph s') /\ (ph s <> Body -> bsteps s' = bsteps s) /\
  (isexited (ph s') = true -> ph s' = ph s \/
     exists c, ph s = Closing c /\ forallb closed_ok (kids s) = true /\
               ph s' = Exited c (outcome_of c (existsb isfailed (kids s)))) /\
  (graceful (ph s') = true -> graceful (ph s) = true \/ (active (ph s) = true /\ existsb pending_nv (kids s) = false)).
Proof.
  intros s l s' H. destruct (step_cases _ _ _ H) as [[(->&_&_&B&_) _]|(_&_&O)]; [auto using phase_le_refl|].
  destruct O as [F|B|B|B|A C|A C|A|[B|B] E|[B|B] E|B|c B C|C N1 N2]; simpl; auto using phase_le_refl;
    try (rewrite B; simpl; repeat split; eauto; try discriminate; try contradiction).
  all: destruct (ph s); try discriminate A; simpl; repeat split; auto; discriminate.
Qed.

Lemma step_kids : forall s l s', inv s -> step s l = Some s' -> forall c, In c (kids s') -> cok (ph s') c.
Proof.
  intros s l s' [A1 A2 K _ _ _] H.
  destruct (step_cases _ _ _ H) as [[(P&_) [(v&_&_&E)|(i&c&c'&N&CS&E&_)]]|(E&_&O)]; rewrite E.
  - rewrite P. intros c Hc. apply in_app_or in Hc as [Hc|[<-|[]]]; auto using cok_spawn.
  - rewrite P. intros x Hx. apply In_upd in Hx as [->|Hx]; auto.
    apply (cstep_cok _ _ _ _ CS), K, (nth_error_In _ _ N).
  - intros c Hc. destruct (step_phase _ _ _ H) as (P1&_&P2&P3).
    apply (cok_phase (ph s)); auto.
    + apply phase_le_facts, P1.
    + intros X. destruct (P2 X) as [Q|(_&_&F&_)]; [left; congruence|]. right. rewrite forallb_forall in F. auto.
    + intros X. destruct (P3 X) as [?|[? F]]; auto. right. split; auto. exact (existsb_false_In _ _ _ F Hc).
Qed.

Lemma step_vlast : forall s l s', inv s -> step s l = Some s' -> vlast (kids s').
Proof.
  intros s l s' [A1 A2 K V _ _] H.
  destruct (step_cases _ _ _ H) as [[_ [(v&_&_&E)|(i&c&c'&N&CS&E&_)]]|(E&_)]; rewrite E; [| |exact V].
  - (* a closed scope refuses; an open one has no child closed as volatile *)
    unfold spawned. intros x Hx S y Hy.
    assert (X : In x (kids s)).
    { apply in_app_or in Hx as [Hx|[<-|[]]]; auto. destruct (interruptable s); discriminate. }
    apply in_app_or in Hy as [Hy|[<-|[]]]; [eauto|].
    pose proof (K _ X) as C. unfold cok in C. rewrite S in C. destruct C as [C _]. rewrite A1, C. apply orb_true_r.
  - intros x Hx S.
    pose proof (nth_error_In _ _ N) as Hc. destruct (cstep_spec _ _ _ _ CS) as (_&D&W).
    assert (VD : forall y, In y (kids s) -> nv_done y = true).
    { apply In_upd in Hx as [->|Hx]; [|eauto]. destruct (isdone c) eqn:Dc.
      - apply (V c); auto. destruct (D eq_refl) as [<- _]. exact S.
      - destruct (W eq_refl S) as (_&F&_). rewrite forallb_forall in F. exact F. }
    intros y Hy. apply In_upd in Hy as [->|Hy]; auto. eapply cstep_nvdone; eauto.
Qed.

Lemma step_out : forall s l s', inv s -> step s l = Some s' -> oinv s'.
Proof.
  intros s l s' [A1 A2 K _ _ O] H. unfold oinv in *.
  destruct (step_cases _ _ _ H) as [[(P&_) [(v&_&_&E)|(i&c&c'&N&CS&E&_)]]|(E&_)].
  - rewrite E, P. destruct (ph s); auto. rewrite existsb_app. simpl.
    replace (isfailed (spawned s v)) with false; [rewrite !orb_false_r; auto|].
    unfold spawned; destruct (interruptable s); reflexivity.
  - rewrite E, P. destruct (ph s) eqn:Q; auto.
    assert (D : isdone c = true) by (apply (cok_exited_done c0 o), K, (nth_error_In _ _ N)).
    destruct (cstep_spec _ _ _ _ CS) as (_&S1&_). destruct (S1 D) as [S2 _].
    rewrite (existsb_upd_same _ isfailed _ _ _ c' N); [exact O|]. unfold isfailed. rewrite S2. reflexivity.
  - rewrite E. destruct (ph s') eqn:Q; auto. destruct (step_phase _ _ _ H) as (_&_&P&_). rewrite Q in P.
    destruct (P eq_refl) as [P'|(c'&_&_&P')]; [rewrite <- P' in O; exact O|congruence].
Qed.

Lemma inv_init : forall k, inv (init k).
Proof.
  intros k; constructor; simpl; auto; try discriminate; try contradiction.
  - intros x [].
  - unfold tinv, pinned; simpl. destruct k as [|[]]; simpl; auto; discriminate.
  - exact I.
Qed.
Lemma step_inv : forall s l s', inv s -> step s l = Some s' -> inv s'.
Proof.
  intros s l s' I H. destruct (step_int _ _ _ I H). constructor; auto.
  - eapply step_kids; eauto.
  - eapply step_vlast; eauto.
  - eapply step_time; eauto.
  - eapply step_out; eauto.
Qed.
Lemma reachable_inv : forall k s, reachable k s -> inv s.
Proof. induction 1; [apply inv_init|eapply step_inv; eauto]. Qed.

Lemma run_app : forall l1 l2 s, run s (l1 ++ l2) = match run s l1 with Some s1 => run s1 l2 | None => None end.
Proof. induction l1; simpl; intros; auto. destruct (step s a); auto. Qed.

Lemma run_inv : forall P : state -> Prop, (forall s l s', P s -> step s l = Some s' -> P s') ->
  forall ls s s', P s -> run s ls = Some s' -> P s'.
Proof.
  intros P HP. induction ls; simpl; intros s s' Ps H.
  - inversion H; subst; exact Ps.
  - destruct (step s a) eqn:E; [|discriminate]. exact (IHls _ _ (HP _ _ _ Ps E) H).
Qed.

Lemma exited_done : forall s c o x, inv s -> ph s = Exited c o -> In x (kids s) -> isdone x = true.
Proof. intros s c o x I P X. apply (cok_exited_done c o). rewrite <- P. apply (i_kids _ I), X. Qed.

(* after the exit: the earlier children keep status, [ran] and [vol]; whatever was spawned since was refused *)
Definition frame (l l' : list child) : Prop :=
  length l <= length l' /\
  (forall i x, nth_error l i = Some x ->
     exists x', nth_error l' i = Some x' /\ st x' = st x /\ ran x' = ran x /\ vol x' = vol x) /\
  (forall i x', nth_error l' i = Some x' -> length l <= i -> st x' = Done Discarded /\ ran x' = false).
Lemma frame_same : forall l, frame l l.
Proof.
  intros l; split; [lia|split]; intros; eauto.
  assert (nth_error l i <> None) by congruence. apply nth_error_Some in H1. lia.
Qed.
Lemma frame_app : forall l v, frame l (l ++ [refused v]).
Proof.
  intros l v; split; [rewrite app_length; lia|split]; intros.
  - exists x. rewrite nth_error_app1; auto. apply nth_error_Some. congruence.
  - rewrite nth_error_app2 in H by auto. destruct (i - length l) as [|[|n]]; simpl in H; try discriminate.
    inversion H; auto.
Qed.
Lemma frame_upd : forall l i c c', nth_error l i = Some c -> st c' = st c -> ran c' = ran c -> vol c' = vol c ->
  frame l (upd i c' l).
Proof.
  intros l i c c' N S1 S2 S3; split; [rewrite length_upd; lia|split]; intros j x; rewrite nth_error_upd.
  - intros Hx. destruct (Nat.eqb_spec i j).
    + subst. rewrite Hx. exists c'. rewrite N in Hx. inversion Hx; subst. auto.
    + exists x; auto.
  - intros Hx L. assert (nth_error l j = None) by (apply nth_error_None; lia).
    rewrite H in Hx. destruct (Nat.eqb i j); discriminate.
Qed.
Lemma frame_trans : forall l1 l2 l3, frame l1 l2 -> frame l2 l3 -> frame l1 l3.
Proof.
  intros l1 l2 l3 (L1&F1&N1) (L2&F2&N2); split; [lia|split]; intros.
  - destruct (F1 _ _ H) as (x1&X1&?&?&?). destruct (F2 _ _ X1) as (x2&X2&?&?&?).
    exists x2; repeat split; congruence.
  - destruct (nth_error l2 i) eqn:E.
    + destruct (N1 _ _ E H0). destruct (F2 _ _ E) as (x2&X2&?&?&?).
      assert (x2 = x') by congruence. subst. split; congruence.
    + apply nth_error_None in E. eauto.
Qed.

(* after the exit only refused spawns, the reaping of tasks that never started, and time are left *)
Lemma exited_step : forall s l s' c o, inv s -> ph s = Exited c o -> step s l = Some s' ->
  ph s' = Exited c o /\ cwork s' = cwork s /\ bsteps s' = bsteps s /\ frame (kids s) (kids s').
Proof.
  intros s l s' c o I P H. destruct (step_phase _ _ _ H) as (Q&B&_). rewrite P in Q, B. simpl in Q.
  assert (B' : bsteps s' = bsteps s) by (apply B; discriminate).
  split; [congruence|].
  destruct (step_cases _ _ _ H) as [[_ [(v&_&W&E)|(i&x&x'&N&CS&E&W)]]|(E&W&_)]; rewrite E.
  - split; [exact W|split; [exact B'|]]. unfold spawned. rewrite (i_int _ I), P. apply frame_app.
  - pose proof (exited_done s c o x I P (nth_error_In _ _ N)) as D.
    destruct (cstep_spec _ _ _ _ CS) as (V&S&_). destruct (S D).
    split; [exact (W D)|split; [exact B'|]]. eapply frame_upd; eauto.
  - split; [exact W|split; [exact B'|apply frame_same]].
Qed.

Theorem contained_thm : forall k s c o, reachable k s -> ph s = Exited c o ->
  Forall (fun x => isdone x = true) (kids s) /\
  (forall i, step s (ChildStart i) = None /\ step s (ChildStep i) = None /\ step s (ChildReturn i) = None /\
             step s (ChildFail i) = None /\ step s (ChildCancel i) = None /\
             forall d, step s (CloseChild i d) = None) /\
  (forall v, step s (Spawn v) = Some (set_kids (kids s ++ [refused v]) s)) /\
  (forall ls s', run s ls = Some s' ->
     ph s' = Exited c o /\ cwork s' = cwork s /\ bsteps s' = bsteps s /\ frame (kids s) (kids s')).
Proof.
  intros k s c o R P. pose proof (reachable_inv _ _ R) as I.
  split; [|split; [|split]].
  - apply Forall_forall. intros x. apply (exited_done s c o x I P).
  - (* every child label but ChildReap needs a child that is not done *)
    intros i. unfold step, on_child, running_only. rewrite P. simpl.
    destruct (nth_error (kids s) i) as [x|] eqn:N; auto 6.
    pose proof (exited_done s c o x I P (nth_error_In _ _ N)) as D. unfold isdone in D.
    destruct (st x); try discriminate. auto 6.
  - intros v. simpl. rewrite (i_int _ I), P. reflexivity.
  - intros ls s' H.
    refine (proj2 (run_inv (fun x => inv x /\ ph x = Exited c o /\ cwork x = cwork s /\ bsteps x = bsteps s /\
                                     frame (kids s) (kids x)) _ ls s s' _ H)).
    + intros x l x' (Ix&Px&W&B&F) St. destruct (exited_step _ _ _ _ _ Ix Px St) as (P1&W1&B1&F1).
      split; [exact (step_inv _ _ _ Ix St)|]. split; [exact P1|]. split; [congruence|]. split; [congruence|].
      exact (frame_trans _ _ _ F F1).
    + split; [exact I|]. split; [exact P|]. split; [reflexivity|]. split; [reflexivity|apply frame_same].
Qed.

Theorem graceful_complete_thm : forall k s o x, reachable k s -> ph s = Exited CGraceful o ->
  In x (kids s) -> vol x = false ->
  st x = Done Success \/ st x = Done CancelledInd \/ st x = Done Discarded \/ (st x = Done Failed /\ o = ChildExc).
Proof.
  intros k s o x R P X V. pose proof (reachable_inv _ _ R) as I.
  pose proof (i_kids _ I x X) as C. pose proof (i_out _ I) as O. unfold oinv in O. rewrite P in *.
  unfold cok in C. destruct (st x) as [| |[]] eqn:S; auto 6.
  all: try (destruct C as (_&C&_); discriminate).
  - right. right. right. split; auto. rewrite O. replace (existsb isfailed (kids s)) with true; auto.
    symmetry. apply existsb_exists. exists x. split; auto. unfold isfailed. rewrite S. reflexivity.
  - destruct C as (_&C). congruence.
Qed.

Theorem late_children_awaited_thm : forall k s o x, reachable k s -> ph s = Exited CGraceful o ->
  In x (kids s) -> vol x = false -> late x = true ->
  st x = Done Success \/ st x = Done CancelledInd \/ (st x = Done Failed /\ o = ChildExc).
Proof.
  intros k s o x R P X V L. destruct (graceful_complete_thm _ _ _ _ R P X V) as [?|[?|[S|?]]]; auto.
  pose proof (i_kids _ (reachable_inv _ _ R) x X) as C. unfold cok in C. rewrite S in C.
  destruct C as (_&_&_&C). congruence.
Qed.

Theorem late_spawn_accepted_thm : forall k s v, reachable k s -> ph s = SetDone \/ ph s = AwaitChildren ->
  step s (Spawn v) = Some (set_kids (kids s ++ [accepted v true]) s).
Proof.
  intros k s v R P. simpl. rewrite (i_int _ (reachable_inv _ _ R)). destruct P as [P|P]; rewrite P; reflexivity.
Qed.

Theorem await_blocks_thm : forall k s x, reachable k s -> ph s = SetDone \/ ph s = AwaitChildren ->
  In x (kids s) -> vol x = false -> isdone x = false -> step s AwaitStep = Some (set_ph AwaitChildren s).
Proof.
  intros k s x R P X V D. pose proof (i_kids _ (reachable_inv _ _ R) x X) as C.
  assert (E : existsb pending_nv (kids s) = true).
  { apply existsb_exists. exists x; split; auto. unfold pending_nv. rewrite V.
    unfold cok in C. unfold isdone in D. destruct (st x); try discriminate; destruct C as [-> _]; reflexivity. }
  simpl. destruct P as [P|P]; rewrite P, E; reflexivity.
Qed.

Theorem volatile_last_step_thm : forall k s l s' i x', reachable k s -> step s l = Some s' ->
  nth_error (kids s') i = Some x' -> st x' = Done ClosedVolatile ->
  (exists x, nth_error (kids s) i = Some x /\ st x = Done ClosedVolatile) \/
  (exists c x, ph s = Closing c /\ nth_error (kids s) i = Some x /\ isdone x = false /\ vol x = true /\
               forallb nv_done (kids s) = true).
Proof.
  intros k s l s' i x' R H N S.
  destruct (step_cases _ _ _ H) as [[_ [(v&_&_&E)|(j&c&c'&Nj&CS&E&_)]]|(E&_)]; rewrite E in N; [| |left; eauto].
  - left. destruct (nth_error_snoc _ _ _ _ N) as [N'|[_ ->]]; [eauto|].
    unfold spawned in S. destruct (interruptable s); discriminate.
  - rewrite nth_error_upd in N. destruct (Nat.eqb_spec j i); [|left; eauto].
    subst. rewrite Nj in N. inversion N; subst.
    destruct (cstep_spec _ _ _ _ CS) as (_&D&W). destruct (isdone c) eqn:Dc.
    + left. exists c. split; auto. destruct (D eq_refl) as [<- _]. exact S.
    + right. destruct (W eq_refl S) as (Y1&Y2&Y3). destruct (ph s) eqn:Q; try discriminate. exists c0, c. auto.
Qed.

Theorem volatile_last_thm : forall k s x, reachable k s -> In x (kids s) -> st x = Done ClosedVolatile ->
  vol x = true /\ active (ph s) = false /\ forall y, In y (kids s) -> vol y = false -> isdone y = true.
Proof.
  intros k s x R X S. pose proof (reachable_inv _ _ R) as I. pose proof (i_kids _ I x X) as C.
  unfold cok in C. rewrite S in C. destruct C as [A V]. split; auto. split; auto.
  intros y Y Vy. pose proof (i_vlast _ I x X S y Y) as D. unfold nv_done in D. rewrite Vy in D. exact D.
Qed.

Lemma done_stable : forall s l s' i x, step s l = Some s' -> nth_error (kids s) i = Some x -> isdone x = true ->
  exists x', nth_error (kids s') i = Some x' /\ st x' = st x /\ ran x' = ran x /\ vol x' = vol x.
Proof.
  intros s l s' i x H N D.
  destruct (step_cases _ _ _ H) as [[_ [(v&_&_&E)|(j&c&c'&Nj&CS&E&_)]]|(E&_)]; rewrite E; [| |eauto].
  - exists x. rewrite nth_error_app1; auto. apply nth_error_Some; congruence.
  - rewrite nth_error_upd. destruct (Nat.eqb_spec j i); [|eauto].
    subst. rewrite N. rewrite Nj in N. inversion N; subst.
    destruct (cstep_spec _ _ _ _ CS) as (?&S&_). destruct (S D). eauto.
Qed.
Lemma done_stable_run : forall ls s s' i x, run s ls = Some s' -> nth_error (kids s) i = Some x -> isdone x = true ->
  exists x', nth_error (kids s') i = Some x' /\ st x' = st x /\ ran x' = ran x /\ vol x' = vol x.
Proof.
  intros ls s s' i x H N D.
  apply (run_inv (fun y => exists x', nth_error (kids y) i = Some x' /\ st x' = st x /\ ran x' = ran x /\ vol x' = vol x))
    with (ls := ls) (s := s); eauto.
  intros y l y' (x1&N1&S1&R1&V1) St.
  assert (D1 : isdone x1 = true) by (unfold isdone in *; rewrite S1; exact D).
  destruct (done_stable _ _ _ _ _ St N1 D1) as (x2&?&?&?&?). exists x2. repeat split; congruence.
Qed.

Theorem closed_scope_refuses_thm : forall k s, reachable k s -> active (ph s) = false ->
  interruptable s = false /\
  (forall v, step s (Spawn v) = Some (set_kids (kids s ++ [refused v]) s)) /\
  (forall v ls s', run (set_kids (kids s ++ [refused v]) s) ls = Some s' ->
     exists x', nth_error (kids s') (length (kids s)) = Some x' /\ st x' = Done Discarded /\ ran x' = false).
Proof.
  intros k s R A. pose proof (i_int _ (reachable_inv _ _ R)) as A1. rewrite A in A1.
  split; auto. split.
  - intros v. simpl. rewrite A1. reflexivity.
  - intros v ls s' H.
    destruct (done_stable_run ls _ _ (length (kids s)) (refused v) H) as (x'&?&?&?&?); eauto.
    simpl. rewrite nth_error_app2, Nat.sub_diag; auto.
Qed.

Theorem discarded_never_runs_thm : forall k s i x, reachable k s -> nth_error (kids s) i = Some x ->
  st x = Done Discarded ->
  ran x = false /\ listed x = false /\
  step s (ChildStart i) = None /\ step s (ChildReap i) = None /\ step s (ChildStep i) = None /\
  step s (ChildReturn i) = None /\ step s (ChildFail i) = None /\ step s (ChildCancel i) = None.
Proof.
  intros k s i x R N S. pose proof (i_kids _ (reachable_inv _ _ R) x (nth_error_In _ _ N)) as C.
  unfold cok in C. rewrite S in C. destruct C as (_&H1&H2&_).
  unfold step, on_child, running_only. rewrite N, S. unfold isdone. rewrite S, H2.
  simpl. destruct (isclosing (ph s)); auto 10.
Qed.

Lemma run_phase_le : forall ls s s', run s ls = Some s' -> phase_le (ph s) (ph s').
Proof.
  intros ls s s'. apply (run_inv (fun x => phase_le (ph s) (ph x))); [|apply phase_le_refl].
  intros x l x' Px H. exact (phase_le_trans _ _ _ Px (proj1 (step_phase _ _ _ H))).
Qed.

Lemma after_body_run : forall ls s s', ph s <> Body -> run s ls = Some s' -> bsteps s' = bsteps s.
Proof.
  intros ls s s' B H. refine (proj2 (run_inv (fun x => ph x <> Body /\ bsteps x = bsteps s) _ ls s s' (conj B eq_refl) H)).
  intros x l x' [Bx E] St. destruct (step_phase _ _ _ St) as (Q&B'&_).
  split; [exact (proj1 (phase_le_facts _ _ Q) Bx)|]. rewrite <- E. exact (B' Bx).
Qed.

Lemma pinned_run : forall ls s s' t, pinned s t -> run s ls = Some s' -> pinned s' t.
Proof. intros ls s s' t. apply (run_inv (fun x => pinned x t)). intros x l x' A H. exact (pinned_step _ _ _ _ A H). Qed.

Lemma pinned_exit : forall s t, pinned s t ->
  (isexited (ph s) = false /\ now s = t /\ step s Tick = None) \/ (exists c o, ph s = Exited c o /\ exited_at s = Some t).
Proof.
  intros s t A. unfold pinned in A. simpl. destruct (ph s); simpl; eauto; left.
  all: destruct A as [A1 [A2|A2]]; rewrite A2; repeat split; auto; destruct (cs s); reflexivity.
Qed.

Theorem fire_schedules_thm : forall s, intr s = Subscribed ->
  step s Fire = Some (set_fired (set_intr IScheduled s)).
Proof. intros s H. simpl. rewrite H. reflexivity. Qed.

Theorem scheduled_now_thm : forall k s, reachable k s -> intr s = IScheduled ->
  active (ph s) = true /\ fired_at s = Some (now s) /\ step s Tick = None /\
  step s DeliverInterrupt = Some (set_intr IDelivered (enter_closing COwnInterrupt s)).
Proof.
  intros k s R S. pose proof (reachable_inv _ _ R) as I.
  pose proof (i_time _ I) as T. pose proof (i_inert _ I) as A2. unfold tinv in T.
  assert (A : active (ph s) = true).
  { destruct (active (ph s)); auto. specialize (A2 eq_refl). rewrite S in A2. discriminate. }
  split; auto. split; [|split].
  - destruct (fired_at s) as [t|]; [|contradiction]. unfold pinned in T.
    destruct (ph s); try discriminate A; destruct T as [-> _]; reflexivity.
  - simpl. rewrite S. destruct (isclosing (ph s)); auto. destruct (cs s); auto.
  - simpl. rewrite A, S. reflexivity.
Qed.

Theorem exit_same_step_thm : forall k s t, reachable k s -> fired_at s = Some t ->
  (isexited (ph s) = false /\ now s = t) \/ (exists c o, ph s = Exited c o /\ exited_at s = Some t).
Proof.
  intros k s t R F. pose proof (i_time _ (reachable_inv _ _ R)) as T. unfold tinv in T. rewrite F in T.
  destruct (pinned_exit _ _ T) as [(E&N&_)|X]; auto.
Qed.

Theorem until_exit_thm : forall k s s1 ls s2, reachable k s ->
  step s DeliverInterrupt = Some s1 -> run s1 ls = Some s2 ->
  fired_at s = Some (now s) /\ bsteps s2 = bsteps s /\
  ((isexited (ph s2) = false /\ now s2 = now s /\ ph s2 = Closing COwnInterrupt) \/
   (exists o, ph s2 = Exited COwnInterrupt o /\ exited_at s2 = Some (now s))).
Proof.
  intros k s s1 ls s2 R H1 H2.
  assert (S : intr s = IScheduled /\ active (ph s) = true).
  { simpl in H1. destruct (active (ph s)); [|discriminate]. destruct (intr s); try discriminate. auto. }
  destruct S as [S A]. destruct (scheduled_now_thm _ _ R S) as (_&F&_&D).
  rewrite D in H1. inversion H1; subst s1. clear H1.
  assert (B : bsteps s2 = bsteps s) by (refine (after_body_run _ _ _ _ H2); discriminate).
  pose proof (run_phase_le _ _ _ H2 : cause_of (ph s2) = Some COwnInterrupt) as C.
  split; auto. split; auto.
  (* _close_scope has begun at [now s] *)
  destruct (pinned_exit _ _ (pinned_run ls (set_intr IDelivered (enter_closing COwnInterrupt s)) _ (now s) eq_refl H2))
    as [(E&N&_)|(c&o&P&X)].
  - left. split; auto. split; auto. destruct (ph s2); simpl in *; try discriminate. congruence.
  - right. rewrite P in C. simpl in C. inversion C; subst. eauto.
Qed.

Theorem until_no_raise_thm : forall k s c o, reachable k s -> ph s = Exited c o ->
  c = CGraceful \/ c = COwnCancel \/ c = COwnInterrupt ->
  o = (if existsb isfailed (kids s) then ChildExc else NoExc) /\
  ((forall x, In x (kids s) -> st x <> Done Failed) -> o = NoExc).
Proof.
  intros k s c o R P C. pose proof (i_out _ (reachable_inv _ _ R)) as O. unfold oinv in O. rewrite P in O.
  assert (o = if existsb isfailed (kids s) then ChildExc else NoExc).
  { rewrite O. destruct C as [?|[?|?]]; subst c; reflexivity. }
  split; auto. intros N. rewrite H. destruct (existsb isfailed (kids s)) eqn:E; auto.
  apply existsb_exists in E as (x&X&Fx). exfalso. apply (N x X).
  unfold isfailed in Fx. destruct (st x) as [| |[]]; try discriminate. reflexivity.
Qed.

Theorem until_inert_after_thm : forall k s ls s', reachable k s -> active (ph s) = false ->
  run s ls = Some s' ->
  active (ph s') = false /\ inert (intr s') = true /\ step s' DeliverInterrupt = None /\ step s' Fire = None.
Proof.
  intros k s ls s' R A H.
  assert (A' : active (ph s') = false).
  { destruct (active (ph s')) eqn:X; auto. rewrite <- A. symmetry.
    exact (proj2 (phase_le_facts _ _ (run_phase_le _ _ _ H)) X). }
  pose proof (i_inert _ (reachable_inv _ _ (reachable_run _ _ _ _ R H)) A') as N.
  repeat split; auto; simpl.
  - rewrite A'. reflexivity.
  - destruct (intr s'); auto; discriminate.
Qed.

Theorem already_true_on_entry_thm :
  intr (init (Until true)) = IScheduled /\ fired_at (init (Until true)) = Some 0 /\
  step (init (Until true)) Tick = None /\
  exists s', step (init (Until true)) DeliverInterrupt = Some s' /\ ph s' = Closing COwnInterrupt /\ bsteps s' = 0.
Proof. repeat split. eexists; repeat split. Qed.

Lemma reachable_of_run : forall k ls s, run (init k) ls = Some s -> reachable k s.
Proof. intros k ls s. exact (reachable_run k ls _ s (r_init k)). Qed.

Definition summary (o : option state) :=
  match o with
  | Some s => Some (ph s, map (fun c => (vol c, st c, listed c, ran c, late c)) (kids s), intr s,
                    (bsteps s, now s, fired_at s, exited_at s))
  | None => None
  end.

Definition ex_graceful : list label :=
  [Spawn false; Spawn true; ChildStart 0; ChildStart 1; BodyStep; BodyReturn; Spawn false; AwaitStep;
   ChildStart 2; ChildReturn 0; AwaitStep; ChildCancel 2; AwaitStep; CloseChild 1 false; FinishClose;
   Spawn false; Tick].
Example ex_graceful_ok : summary (run (init Plain) ex_graceful) =
  Some (Exited CGraceful NoExc,
        [(false, Done Success, false, true, false); (true, Done ClosedVolatile, false, true, false);
         (false, Done CancelledInd, false, true, true); (false, Done Discarded, false, false, false)],
        NoIntr, (1, 1, None, Some 0)).
Proof. vm_compute. reflexivity. Qed.
(* the volatile child cannot be closed, and the block cannot be left, while child 2 (late) is alive *)
Example ex_graceful_blocked :
  summary (run (init Plain) (firstn 11 ex_graceful ++ [AwaitStep])) =
  summary (run (init Plain) (firstn 11 ex_graceful)) /\
  run (init Plain) (firstn 11 ex_graceful ++ [CloseChild 1 false]) = None /\
  run (init Plain) (ex_graceful ++ [ChildStart 3]) = None.
Proof. vm_compute. auto. Qed.

Definition ex_until : list label :=
  [Spawn false; Spawn true; ChildStart 0; Tick; BodyStep; Fire; BodyStep; DeliverInterrupt;
   CloseChild 0 false; CloseChild 1 false; FinishClose; ChildReap 1; Tick].
Example ex_until_ok : summary (run (init (Until false)) ex_until) =
  Some (Exited COwnInterrupt NoExc,
        [(false, Done ClosedScope, false, true, false); (true, Done ClosedVolatile, false, false, false)],
        IDelivered, (2, 2, Some 1, Some 1)).
Proof. vm_compute. reflexivity. Qed.
Example ex_until_no_tick_while_scheduled :
  run (init (Until false)) [Fire; Tick] = None /\ run (init (Until true)) [Tick] = None /\
  run (init (Until false)) (firstn 8 ex_until ++ [CloseChild 1 false]) = None.
Proof. vm_compute. auto. Qed.

Definition ex_fail : list label :=
  [Spawn false; Spawn false; ChildStart 0; BodyReturn; AwaitStep; ChildFail 0; DeliverCancelSelf;
   CloseChild 1 true; FinishClose; ChildReap 1; Tick; Spawn true].
Example ex_fail_ok : summary (run (init (Until false)) ex_fail) =
  Some (Exited COwnCancel ChildExc,
        [(false, Done Failed, false, true, false); (false, Done ClosedScope, false, false, false);
         (true, Done Discarded, false, false, false)],
        Unsubscribed, (0, 1, None, Some 0)).
Proof. vm_compute. reflexivity. Qed.

Definition ex_true : list label := [BodyStep; Spawn false; ChildStart 0; DeliverInterrupt; CloseChild 0 true; FinishClose].
Example ex_true_ok : summary (run (init (Until true)) ex_true) =
  Some (Exited COwnInterrupt ChildExc, [(false, Done Failed, false, true, false)], IDelivered, (1, 0, Some 0, Some 0)).
Proof. vm_compute. reflexivity. Qed.

Definition ex_race : list label :=   (* notification fires, but the body and children finish first *)
  [Spawn false; ChildStart 0; BodyReturn; AwaitStep; ChildReturn 0; Fire; AwaitStep; FinishClose; Tick].
Example ex_race_ok : summary (run (init (Until false)) ex_race) =
  Some (Exited CGraceful NoExc, [(false, Done Success, false, true, false)], IRevoked, (0, 1, Some 0, Some 0)).
Proof. vm_compute. reflexivity. Qed.
