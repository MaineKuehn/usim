(** C05: what a scope raises, as a function of the failures of its children and of its body
    ([Scope._collect_exceptions] / [_propagate_exceptions] as transcribed in Lib.v), for ALL inputs. *)
From Coq Require Import ZArith List Bool.
From Usim Require Import Machine Lib.
Import ListNotations.

(** the failures that belong into a Concurrent: neither suppressed (cancellation, closure, GeneratorExit)
    nor promoted (privileged) *)
Definition reportable (e : exn) : bool := negb (exn_is_promoted e) && negb (exn_is_suppressed e).

Lemma collect_spec fs : forall acc,
  match collect_exceptions fs acc with
  | (Some p, l) => l = [] /\ exn_is_promoted p = true /\
                   exists pre post, fs = pre ++ p :: post /\ existsb exn_is_promoted pre = false
  | (None, l) => l = acc ++ filter reportable fs /\ existsb exn_is_promoted fs = false
  end.
Proof.
  induction fs as [|e fs IH]; cbn; intros acc; [now rewrite app_nil_r|].
  unfold reportable at 1. destruct (exn_is_promoted e) eqn:E; cbn.
  - repeat split; auto. exists [], fs. split; reflexivity.
  - destruct (exn_is_suppressed e); cbn; [specialize (IH acc)|specialize (IH (acc ++ [e]))];
      destruct (collect_exceptions fs _) as [[p|] l].
    1,3: destruct IH as (-> & P & pre & post & -> & H); repeat split; auto; exists (e :: pre), post; cbn; now rewrite E.
    all: destruct IH as (-> & H); split; auto; now rewrite <- app_assoc.
Qed.

Inductive ending := NoExc | BodyExc (e : exn) | Conc (l : list exn) | Priv (e : exn).

Definition ending_of (failures : list exn) (own : bool) (exc : option exn) : ending :=
  match propagate_pure failures own exc with
  | PSwallow => NoExc
  | PReraise => match exc with Some e => BodyExc e | None => NoExc end
  | PRaise (EConcurrent l) => Conc l
  | PRaise p => Priv p
  end.

(** so [PRaise p] of a promoted [p] is [Priv p] in [ending_of]; a Concurrent raised is the fresh one that
    [collect_exceptions] built *)
Lemma promoted_not_concurrent p : exn_is_promoted p = true -> forall l, p <> EConcurrent l.
Proof. intros H l E. subst. discriminate. Qed.

(** what leaves the body: a privileged exception (re-raised whatever the children did), none or one of the scope's
    own signals (the children decide), or another one (only a privileged child failure overrides it) *)
Inductive mode := Reraise (e : exn) | Own | Foreign (e : exn).
Definition mode_of (own : bool) (exc : option exn) : mode :=
  match exc with
  | Some e => if exn_type_promoted e then Reraise e else if own then Own else Foreign e
  | None => Own
  end.

Lemma ending_cases failures own exc :
  ending_of failures own exc =
  match mode_of own exc, collect_exceptions failures [] with
  | Reraise e, _ => BodyExc e
  | _, (Some p, _) => Priv p
  | Own, (None, []) => NoExc
  | Own, (None, l) => Conc l
  | Foreign e, (None, _) => BodyExc e
  end.
Proof.
  unfold ending_of, propagate_pure, mode_of. pose proof (collect_spec failures []) as C.
  assert (Q : forall p, exn_is_promoted p = true -> match p with EConcurrent l => Conc l | _ => Priv p end = Priv p).
  { intros p P. destruct p; auto. elim (promoted_not_concurrent _ P l); auto. }
  destruct exc as [e|]; [destruct (exn_type_promoted e); [|destruct own]|]; auto;
    destruct (collect_exceptions failures []) as [[p|] l]; auto; try (apply Q, C); destruct l; auto.
Qed.

(** C05: a Concurrent carries exactly the reportable child failures, each once, in order of occurrence; it is raised
    only when the body did not raise an exception of its own, and is never empty *)
Theorem conc_content failures own exc l :
  ending_of failures own exc = Conc l ->
  l = filter reportable failures /\ l <> [] /\
  existsb exn_is_promoted failures = false /\
  (exc = None \/ exists e, exc = Some e /\ own = true) /\
  Forall (fun e => exn_is_suppressed e = false /\ exn_is_promoted e = false) l.
Proof.
  rewrite ending_cases. pose proof (collect_spec failures []) as C.
  assert (M : mode_of own exc = Own -> exc = None \/ exists e, exc = Some e /\ own = true).
  { unfold mode_of. destruct exc as [e|]; auto. destruct (exn_type_promoted e), own; try discriminate; eauto. }
  destruct (mode_of own exc), (collect_exceptions failures []) as [[p|] l0]; try discriminate.
  destruct C as (-> & P). cbn [app]. destruct (filter reportable failures) as [|x r] eqn:F; [discriminate|].
  intros H. inversion H. subst l. repeat split; auto; [discriminate|].
  rewrite <- F. apply Forall_forall. intros e He. apply filter_In in He as [_ He]. unfold reportable in He.
  destruct (exn_is_promoted e), (exn_is_suppressed e); auto; discriminate.
Qed.

(** C05 never a regular and a concurrent failure at once: an exception of the body's own (not one of the scope's
    signals) leaves as itself unless a privileged child failure overrides it *)
Theorem body_exception_wins failures e :
  ending_of failures false (Some e) = BodyExc e \/
  exists p, ending_of failures false (Some e) = Priv p /\ In p failures /\ exn_is_promoted p = true.
Proof.
  rewrite ending_cases. pose proof (collect_spec failures []) as C. unfold mode_of.
  destruct (exn_type_promoted e); auto. destruct (collect_exceptions failures []) as [[p|] l]; auto.
  destruct C as (_ & P & pre & post & -> & _). right. exists p. repeat split; auto. apply in_elt.
Qed.

(** C05 privileged exceptions are never wrapped: the first privileged child failure is raised as itself *)
Theorem priv_unwrapped failures own exc p :
  ending_of failures own exc = Priv p ->
  In p failures /\ exn_is_promoted p = true /\
  exists pre post, failures = pre ++ p :: post /\ existsb exn_is_promoted pre = false.
Proof.
  rewrite ending_cases. pose proof (collect_spec failures []) as C.
  destruct (mode_of own exc), (collect_exceptions failures []) as [[q|] l]; try discriminate;
    try (destruct l; discriminate); intros E; inversion E; subst q;
    destruct C as (_ & P & pre & post & -> & H); (split; [apply in_elt|eauto]).
Qed.

(** C05: without failures worth reporting a scope that ends normally (or by its own signal) raises nothing *)
Theorem quiet_without_failures failures own exc :
  (exc = None \/ own = true /\ exists e, exc = Some e /\ exn_type_promoted e = false) ->
  filter reportable failures = [] -> existsb exn_is_promoted failures = false ->
  ending_of failures own exc = NoExc.
Proof.
  rewrite ending_cases. pose proof (collect_spec failures []) as C. intros Hc Hf Hp.
  replace (mode_of own exc) with Own by (destruct Hc as [->|(-> & e & -> & He)]; cbn; rewrite ?He; reflexivity).
  destruct (collect_exceptions failures []) as [[p|] l].
  - destruct C as (_ & P & pre & post & -> & _). rewrite existsb_app in Hp. cbn in Hp. rewrite P, orb_true_r in Hp. discriminate.
  - destruct C as (-> & _). rewrite Hf. reflexivity.
Qed.

(** the hypotheses are satisfiable *)
Example conc_example :
  ending_of [EUser 0 1; ETaskCancelled 2 5%Z; EUser 2 7] false None = Conc [EUser 0 1; EUser 2 7].
Proof. reflexivity. Qed.
Example priv_example :
  ending_of [EUser 0 1; EUser 4 3; EUser 2 7] true (Some (ESig 9)) = Priv (EUser 4 3).
Proof. reflexivity. Qed.
