(* Proofs about ChanProto: for ALL operation sequences of the nondeterministic environment
   (any number of consumers and producers, any timing, faults at any suspension point). *)
Require Import ZArith List Lia.
Import ListNotations.
From Usim Require Import ListFacts ChanProto.

(* the messages put since consumer c subscribed *)
Definition pend (ps : list Z) (c : cons) : list Z := skipn (csub c) ps.

Definition single_recv (c : cons) : Prop :=
  ckind c = Single -> match cout c with OGot _ => True | _ => crecv c = [] end.

Definition cinv (cl : bool) (ps : list Z) (c : cons) : Prop :=
  csub c <= length ps /\
  single_recv c /\
  match cph c with
  | Waiting => cout c = ONone /\ cl = false /\ cbuf c = [] /\ crecv c = pend ps c
  | Woken => cout c = ONone /\ (cbuf c <> [] \/ cl = true) /\ crecv c ++ cbuf c = pend ps c
  | Postponed => cout c = ONone /\ ckind c = Iter /\ cbuf c <> [] /\ crecv c ++ cbuf c = pend ps c
  | Body | Abandoned => cout c = ONone /\ ckind c = Iter /\ crecv c ++ cbuf c = pend ps c
  | Done =>
      match cout c with
      | OGot x => ckind c = Single /\ crecv c = [x] /\ nth_error ps (csub c) = Some x
      | OClosed => ckind c = Single /\ cl = true /\ crecv c = [] /\ pend ps c = []
      | OEnded => ckind c = Iter /\ cl = true /\ crecv c = pend ps c
      | OFault => exists rest, crecv c ++ rest = pend ps c
      | OLeft => ckind c = Iter /\ exists rest, crecv c ++ rest = pend ps c
      | ONone | OError => False
      end
  end.

Definition Inv (s : state) : Prop :=
  NoDup (map cid (conss s)) /\ Forall (cinv (closed s) (puts s)) (conss s).

Lemma skipn_cons_nth : forall (A : Type) n (l : list A) x r,
  skipn n l = x :: r -> nth_error l n = Some x.
Proof.
  induction n; destruct l; simpl; intros; try discriminate.
  - inversion H; reflexivity.
  - eauto.
Qed.

Lemma find_none_notin : forall i l, find i l = None -> ~ In i (map cid l).
Proof.
  unfold find. induction l; simpl; intros; auto.
  destruct (cid a =? i) eqn:E; try discriminate.
  apply Nat.eqb_neq in E. intros [F | F]; auto. apply IHl; auto.
Qed.

Lemma find_some : forall i l c, find i l = Some c -> In c l /\ cid c = i.
Proof.
  unfold find. intros. apply find_some in H. destruct H. apply Nat.eqb_eq in H0. auto.
Qed.

Lemma find_snoc : forall j l c,
  find j (l ++ [c]) =
  match find j l with Some x => Some x | None => if cid c =? j then Some c else None end.
Proof.
  unfold find. induction l; simpl; intros; auto.
  destruct (cid a =? j); auto.
Qed.

Lemma find_map : forall j (g : cons -> cons) l,
  (forall c, cid (g c) = cid c) -> find j (map g l) = option_map g (find j l).
Proof.
  unfold find. induction l; simpl; intros; auto.
  rewrite H. destruct (cid a =? j); auto.
Qed.

Lemma find_upd : forall j i (f : cons -> cons) l,
  (forall c, cid (f c) = cid c) ->
  find j (upd i f l) = if j =? i then option_map f (find j l) else find j l.
Proof.
  intros j i f l H. unfold upd. rewrite find_map by (intros c; destruct (cid c =? i); auto).
  destruct (find j l) as [c|] eqn:F; [|destruct (j =? i); reflexivity].
  apply find_some in F as [_ <-]. cbn. destruct (cid c =? i); reflexivity.
Qed.

(* [local], by the section of the source it transcribes; only a consumer still in the dict has sections *)
Lemma local_cases o cl c c' r : local o cl c = Some (c', r) ->
  registered c = true /\
  ((cph c = Woken /\ ckind c = Single /\ single_resume cl c = (c', r)) \/
   (cph c = Woken /\ ckind c = Iter /\ iter_wake cl c = (c', r)) \/
   (cph c = Postponed /\ ckind c = Iter /\ yield_head c = (c', r)) \/
   (cph c = Body /\ ckind c = Iter /\ iter_loop cl c = (c', r)) \/
   (cph c <> Body /\ cph c <> Abandoned /\ c' = finish OFault c) \/
   (cph c = Body /\ c' = set_ph Abandoned c) \/
   (cph c = Abandoned /\ c' = finish OLeft c)).
Proof.
  unfold local, registered. destruct o; try discriminate; destruct (cph c); try discriminate;
    destruct (ckind c); try discriminate; intros [= <- <-] || intros [= ->];
    (split; [reflexivity|]); auto 12; do 4 right; left; repeat split; discriminate.
Qed.

Lemma cid_wake : forall c, cid (wake c) = cid c.
Proof. intros. unfold wake. destruct (cph c); reflexivity. Qed.

Lemma cid_c_put : forall x c, cid (c_put x c) = cid c.
Proof. intros. unfold c_put. destruct (registered c); auto. rewrite cid_wake. reflexivity. Qed.

Lemma cid_local : forall o cl c c' r, local o cl c = Some (c', r) -> cid c' = cid c.
Proof.
  intros o cl c c' r L. change c' with (fst (c', r)).
  destruct (local_cases o cl c c' r L)
    as (_ & [(_ & _ & <-)|[(_ & _ & <-)|[(_ & _ & <-)|[(_ & _ & <-)|[(_ & _ & ->)|[(_ & ->)|(_ & ->)]]]]]]);
    unfold single_resume, iter_wake, iter_loop, yield_head; destruct (cbuf c), cl; reflexivity.
Qed.

Definition lf (o : op) (cl : bool) (c : cons) : cons :=
  match local o cl c with Some (c', _) => c' | None => c end.

Lemma cid_lf : forall o cl c, cid (lf o cl c) = cid c.
Proof.
  intros. unfold lf. destruct (local o cl c) as [[c' r]|] eqn:E; auto.
  eapply cid_local; eauto.
Qed.

Lemma cinv_registered cl ps c : cinv cl ps c -> registered c = true ->
  cout c = ONone /\ crecv c ++ cbuf c = pend ps c.
Proof.
  intros (_ & _ & H) G. unfold registered in G. destruct (cph c); try discriminate; try tauto.
  destruct H as (O & _ & B & E). rewrite B, app_nil_r. auto.
Qed.

Lemma cinv_prefix cl ps c : cinv cl ps c -> exists rest, crecv c ++ rest = pend ps c.
Proof.
  intros H. destruct (registered c) eqn:G.
  { exists (cbuf c). apply (cinv_registered cl ps c H G). }
  destruct H as (L & _ & H). unfold registered in G. destruct (cph c); try discriminate.
  destruct (cout c); try contradiction.
  - destruct H as (_ & -> & N). unfold pend.
    assert (csub c < length ps) by (apply nth_error_Some; congruence).
    destruct (skipn (csub c) ps) as [|y r] eqn:E.
    + apply (f_equal (@length Z)) in E. rewrite skipn_length in E. cbn in E. lia.
    + exists r. apply skipn_cons_nth in E. cbn. congruence.
  - destruct H as (_ & _ & -> & ->). exists []. reflexivity.
  - destruct H as (_ & _ & ->). exists []. apply app_nil_r.
  - exact H.
  - apply H.
Qed.

Lemma cinv_put : forall ps x c, cinv false ps c -> cinv false (ps ++ [x]) (c_put x c).
Proof.
  intros ps x c (Hle & Hs & H).
  assert (L : csub c <= length (ps ++ [x])) by (rewrite app_length; simpl; lia).
  assert (Ps : skipn (csub c) (ps ++ [x]) = skipn (csub c) ps ++ [x]).
  { rewrite skipn_app. replace (csub c - length ps) with 0 by lia. reflexivity. }
  unfold cinv, c_put, registered, pend, single_recv in *.
  destruct (cph c) eqn:P; simpl in *; rewrite ?P; simpl;
    (split; [exact L|]); (split; [exact Hs|]); rewrite ?Ps.
  - destruct H as (Ho & _ & Hb & Hr). rewrite Hb; simpl. split; auto.
    split; [left; discriminate|]. rewrite Hr. reflexivity.
  - destruct H as (Ho & _ & Hr). split; auto.
    split; [left; destruct (cbuf c); discriminate|]. rewrite <- Hr, app_assoc. reflexivity.
  - destruct H as (Ho & Hk & Hb & Hr). repeat split; auto.
    + destruct (cbuf c); discriminate.
    + rewrite <- Hr, app_assoc. reflexivity.
  - destruct H as (Ho & Hk & Hr). repeat split; auto. rewrite <- Hr, app_assoc. reflexivity.
  - destruct H as (Ho & Hk & Hr). repeat split; auto. rewrite <- Hr, app_assoc. reflexivity.
  - destruct (cout c); auto.
    + destruct H as (Hk & Hr & Hn). repeat split; auto.
      rewrite nth_error_app1; auto. apply nth_error_Some. congruence.
    + destruct H as (_ & F & _). discriminate.
    + destruct H as (_ & F & _). discriminate.
    + destruct H as (rest & Hr). exists (rest ++ [x]). rewrite <- Hr, app_assoc. reflexivity.
    + destruct H as (Hk & rest & Hr). split; auto. exists (rest ++ [x]).
      rewrite <- Hr, app_assoc. reflexivity.
Qed.

Lemma cinv_close : forall ps c, cinv false ps c -> cinv true ps (wake c).
Proof.
  intros ps c (Hle & Hs & H).
  unfold cinv, wake, registered, single_recv in *.
  destruct (cph c) eqn:P; simpl; rewrite ?P; simpl; (split; [auto|]); (split; [auto|]); auto.
  - destruct H as (Ho & _ & Hb & Hr). repeat split; auto. rewrite Hb, app_nil_r. auto.
  - destruct H as (Ho & _ & Hr); auto.
  - destruct (cout c); auto; destruct H as (_ & F & _); discriminate.
Qed.

(* `if not buffer:` at the top of the loop of __aiter__: end if closed, else sleep *)
Lemma cinv_loop_empty (cl : bool) ps c c' r : csub c <= length ps -> ckind c = Iter -> cout c = ONone ->
  crecv c ++ cbuf c = pend ps c -> cbuf c = [] ->
  (if cl then (finish OEnded c, REnded) else (set_ph Waiting c, RSleep)) = (c', r) -> cinv cl ps c'.
Proof.
  intros Hle K O E B L. rewrite B, app_nil_r in E.
  destruct cl; injection L as <- _; (split; [exact Hle|]); unfold single_recv; cbn; rewrite ?O;
    (split; [intros K'; congruence|]); repeat split; auto; exact E.
Qed.

(* `yield buffer.popleft()` *)
Lemma cinv_yield_head cl ps c c' r : csub c <= length ps -> ckind c = Iter -> cout c = ONone ->
  crecv c ++ cbuf c = pend ps c -> cbuf c <> [] -> yield_head c = (c', r) -> cinv cl ps c'.
Proof.
  intros Hle K O E B L. unfold yield_head in L. destruct (cbuf c) as [|x b]; [contradiction|].
  injection L as <- _. split; [exact Hle|]. split; [intros K'; cbn in K'; congruence|]. cbn.
  rewrite <- app_assoc. auto.
Qed.

Lemma cinv_local : forall o cl ps c c' r,
  cinv cl ps c -> local o cl c = Some (c', r) -> cinv cl ps c'.
Proof.
  intros o cl ps c c' r H L. destruct (local_cases o cl c c' r L) as [G Cases].
  destruct (cinv_registered cl ps c H G) as [O E], H as (Hle & Hs & H).
  destruct Cases as [(P & K & S)|[(P & K & S)|[(P & K & S)|[(P & K & S)|[(_ & _ & ->)|[(P & ->)|(P & ->)]]]]]];
    try rewrite P in H.
  - (* tail of Channel.__await__: `buffer[0]`, or StreamClosed if there is none *)
    specialize (Hs K). rewrite O in Hs. rewrite Hs in E. cbn in E.
    unfold single_resume in S. destruct (cbuf c) as [|x b].
    + destruct H as (_ & [W| ->] & _); [contradiction|]. injection S as <- _.
      split; [exact Hle|]. split; [intros _; exact Hs|]. cbn. auto.
    + injection S as <- _. split; [exact Hle|]. split; [intros _; exact Logic.I|]. cbn.
      split; [exact K|]. split; [reflexivity|]. apply (skipn_cons_nth _ _ _ _ b). symmetry. exact E.
  - (* after `await self._notification`: yield at once, or `continue` with an empty buffer *)
    unfold iter_wake in S. destruct (cbuf c) eqn:B; rewrite <- B in E.
    + exact (cinv_loop_empty cl ps c c' r Hle K O E B S).
    + apply (cinv_yield_head cl ps c c' r Hle K O E); [rewrite B; discriminate|exact S].
  - apply (cinv_yield_head cl ps c c' r Hle K O E); [apply H|exact S].
  - (* top of the loop: buffered -> postpone first, the pop comes after *)
    unfold iter_loop in S. destruct (cbuf c) eqn:B; rewrite <- B in E;
      [exact (cinv_loop_empty cl ps c c' r Hle K O E B S)|].
    injection S as <- _. split; [exact Hle|]. split; [exact Hs|]. cbn.
    split; [exact O|]. split; [exact K|]. split; [rewrite B; discriminate|exact E].
  - (* a signal takes the consumer out wherever it is suspended *)
    split; [exact Hle|]. split; [|cbn; eauto]. intros K. specialize (Hs K). rewrite O in Hs. exact Hs.
  - split; [exact Hle|]. split; [exact Hs|exact H].
  - split; [exact Hle|]. split; [intros K'; cbn in K'; destruct H as (_ & K & _); congruence|]. cbn.
    split; [apply H|eauto].
Qed.

Lemma cinv_lf : forall o cl ps c, cinv cl ps c -> cinv cl ps (lf o cl c).
Proof.
  intros. unfold lf. destruct (local o cl c) as [[c' r]|] eqn:E; auto.
  eapply cinv_local; eauto.
Qed.

Definition is_local (o : op) (i : nat) : Prop :=
  o = Resume i \/ o = Next i \/ o = Fault i \/ o = Leave i \/ o = Finalise i.

Lemma op_cases (P : op -> Prop) :
  (forall x, P (Put x)) -> P Close -> (forall i k, P (Sub i k)) ->
  (forall o i, is_local o i -> P o) -> forall o, P o.
Proof. intros HP HC HS HL. destruct o; auto; apply (HL _ i); unfold is_local; tauto. Qed.

Lemma actor_local o i : is_local o i -> actor o = Some i.
Proof. intros [H | [H | [H | [H | H]]]]; subst o; reflexivity. Qed.

Lemma step_local_shape : forall s o i, is_local o i ->
  step s o =
  match find i (conss s) with
  | None => (s, RDisabled)
  | Some c =>
      match local o (closed s) c with
      | None => (s, RDisabled)
      | Some (_, r) => (mkS (closed s) (puts s) (upd i (lf o (closed s)) (conss s)), r)
      end
  end.
Proof. intros s o i [H | [H | [H | [H | H]]]]; subst o; reflexivity. Qed.

Lemma Inv_init : Inv init.
Proof. split; simpl; constructor. Qed.

Lemma Inv_map (g : cons -> cons) cl ps s :
  (forall c, cid (g c) = cid c) -> (forall c, cinv (closed s) (puts s) c -> cinv cl ps (g c)) ->
  Inv s -> Inv (mkS cl ps (map g (conss s))).
Proof.
  intros Hid Hg [Hn Hf]. split; cbn.
  - rewrite map_map, (map_ext _ cid Hid). exact Hn.
  - apply Forall_map. exact (Forall_impl _ Hg Hf).
Qed.

Lemma Inv_snoc cl c0 s : closed s = cl -> find (cid c0) (conss s) = None -> cinv cl (puts s) c0 ->
  Inv s -> Inv (mkS cl (puts s) (conss s ++ [c0])).
Proof.
  intros <- F H0 [Hn Hf]. split; cbn.
  - rewrite map_app. apply NoDup_snoc; [exact Hn|apply find_none_notin, F].
  - apply Forall_app. split; [exact Hf|constructor; [exact H0|constructor]].
Qed.

Lemma Inv_step : forall s o, Inv s -> Inv (fst (step s o)).
Proof.
  intros s o HI. induction o as [x| |i k|o i L] using op_cases.
  - cbn. destruct (closed s) eqn:C; [exact HI|].
    apply Inv_map; [apply cid_c_put| |exact HI]. rewrite C. intros c. apply cinv_put.
  - cbn. destruct (closed s) eqn:C; [exact HI|].
    apply Inv_map; [apply cid_wake| |exact HI]. rewrite C. intros c. apply cinv_close.
  - cbn. destruct (find i (conss s)) eqn:F; [exact HI|].
    assert (SK : skipn (length (puts s)) (puts s) = []) by apply skipn_all.
    destruct (closed s) eqn:C; [destruct k|]; cbn; apply Inv_snoc; auto;
      (split; [apply le_n|]); (split; [intros _; reflexivity|]); cbn; unfold pend; cbn; auto.
  - rewrite (step_local_shape s o i L).
    destruct (find i (conss s)) as [c|]; [|exact HI].
    destruct (local o (closed s) c) as [[c' r]|]; [|exact HI]. cbn [fst]. unfold upd.
    apply Inv_map; [| |exact HI]; intros c0; destruct (cid c0 =? i); auto using cid_lf, cinv_lf.
Qed.

Lemma Inv_run : forall tr s, Inv s -> Inv (run s tr).
Proof. induction tr; simpl; intros; auto. apply IHtr. apply Inv_step; auto. Qed.

Lemma Inv_reachable : forall s, reachable s -> Inv s.
Proof. intros s [tr ->]. apply Inv_run. apply Inv_init. Qed.

Lemma reach_cinv : forall s c, reachable s -> In c (conss s) -> cinv (closed s) (puts s) c.
Proof.
  intros s c R I. apply Inv_reachable in R. destruct R as [_ F].
  rewrite Forall_forall in F. auto.
Qed.

Lemma reachable_step : forall s o, reachable s -> reachable (fst (step s o)).
Proof.
  intros s o [tr ->]. exists (tr ++ [o]).
  assert (G : forall tr s, run s (tr ++ [o]) = fst (step (run s tr) o)).
  { clear. induction tr; simpl; intros; auto. }
  rewrite G. reflexivity.
Qed.

Arguments find : simpl never.
Arguments upd : simpl never.

(* broadcast: what a subscribed consumer has received, followed by what waits in its private
   buffer, is exactly the sequence of messages put since it subscribed: nothing lost,
   duplicated or reordered -- whatever the other consumers and the faults did *)
Theorem broadcast_exact_thm : forall s c,
  reachable s -> In c (conss s) -> registered c = true ->
  crecv c ++ cbuf c = skipn (csub c) (puts s).
Proof. intros s c R I G. apply (cinv_registered _ _ c (reach_cinv s c R I) G). Qed.

(* a consumer that is gone received a prefix of them and nothing else *)
Theorem received_prefix_thm : forall s c,
  reachable s -> In c (conss s) ->
  exists rest, crecv c ++ rest = skipn (csub c) (puts s).
Proof. intros s c R I. exact (cinv_prefix _ _ c (reach_cinv s c R I)). Qed.

(* no lost wake-up: a consumer sleeping un-woken has nothing to receive and the stream is open *)
Theorem sleeping_has_nothing_thm : forall s c,
  reachable s -> In c (conss s) -> cph c = Waiting ->
  cbuf c = [] /\ closed s = false /\ crecv c = skipn (csub c) (puts s).
Proof.
  intros s c R I P. pose proof (reach_cinv s c R I) as (_ & _ & H).
  rewrite P in H. tauto.
Qed.

(* a consumer that was woken has something to receive or the stream is closed: the
   `buffer[0]` of Channel.__await__ cannot raise IndexError *)
Theorem woken_has_reason_thm : forall s c,
  reachable s -> In c (conss s) -> cph c = Woken -> cbuf c <> [] \/ closed s = true.
Proof.
  intros s c R I P. pose proof (reach_cinv s c R I) as (_ & _ & H).
  rewrite P in H. tauto.
Qed.

(* `await channel`: returns the first message put after it started waiting; raises
   StreamClosed only if the channel is closed and nothing was put meanwhile; a consumer
   removed by a fault received nothing; no other ending exists *)
Theorem single_get_first_thm : forall s c,
  reachable s -> In c (conss s) -> ckind c = Single -> cph c = Done ->
  match cout c with
  | OGot x => crecv c = [x] /\ nth_error (puts s) (csub c) = Some x
  | OClosed => crecv c = [] /\ closed s = true /\ skipn (csub c) (puts s) = []
  | OFault => crecv c = []
  | _ => False
  end.
Proof.
  intros s c R I K P. pose proof (reach_cinv s c R I) as (_ & Hs & H).
  rewrite P in H. unfold pend, single_recv in *. specialize (Hs K).
  destruct (cout c); try tauto; try (destruct H; congruence).
Qed.

(* after close: pending messages are still delivered, then iteration ends -- an iterating
   consumer whose loop ended normally has received EVERY message put since it subscribed,
   and the stream is closed *)
Theorem close_then_end_thm : forall s c,
  reachable s -> In c (conss s) -> cout c = OEnded ->
  ckind c = Iter /\ closed s = true /\ crecv c = skipn (csub c) (puts s).
Proof.
  intros s c R I O. pose proof (reach_cinv s c R I) as (_ & _ & H).
  rewrite O in H. unfold pend in H.
  destruct (cph c); try (destruct H; discriminate). auto.
Qed.

Lemma step_closed_puts : forall s o, closed s = true ->
  closed (fst (step s o)) = true /\ puts (fst (step s o)) = puts s.
Proof.
  intros s o C. induction o as [x| |i k|o i L] using op_cases; cbn; rewrite ?C; auto.
  - destruct (find i (conss s)); auto. destruct k; auto.
  - rewrite (step_local_shape s o i L).
    destruct (find i (conss s)) as [c|]; auto. destruct (local o (closed s) c) as [[c' r]|]; auto.
Qed.

(* ... a put on a closed channel raises and changes nothing; close is idempotent;
   a new `await channel` raises; no further message is ever accepted *)
Theorem closed_rejects_thm : forall s, closed s = true ->
  (forall x, step s (Put x) = (s, RRaised)) /\
  step s Close = (s, RNone) /\
  (forall i, find i (conss s) = None -> snd (step s (Sub i Single)) = RRaised) /\
  (forall i, find i (conss s) = None -> snd (step s (Sub i Iter)) = REnded) /\
  (forall o, closed (fst (step s o)) = true /\ puts (fst (step s o)) = puts s).
Proof.
  intros s C. split; [|split; [|split; [|split]]]; intros; simpl; rewrite ?C; auto;
    try (rewrite H; reflexivity).
  apply step_closed_puts; auto.
Qed.

(* ... and what a still-subscribed iterating consumer gets on a closed channel: the messages
   still in its buffer, one per (postponement, pop), in order, then the end *)
Theorem closed_drains_thm : forall s c i, closed s = true ->
  find i (conss s) = Some c -> ckind c = Iter ->
  (cph c = Woken ->
     snd (step s (Resume i)) = match cbuf c with x :: _ => RYield x | [] => REnded end) /\
  (cph c = Body ->
     snd (step s (Next i)) = match cbuf c with _ :: _ => RPostpone | [] => REnded end) /\
  (cph c = Postponed ->
     snd (step s (Resume i)) = match cbuf c with x :: _ => RYield x | [] => RError end).
Proof.
  intros s c i C F K. repeat split; intros P; simpl; rewrite F; unfold local; rewrite P, K;
    unfold iter_wake, iter_loop, yield_head; rewrite ?C; destruct (cbuf c); reflexivity.
Qed.

(* a consumer suspended in its postponement has a non-empty buffer: the pop cannot fail *)
Theorem postponed_has_message_thm : forall s c,
  reachable s -> In c (conss s) -> cph c = Postponed -> cbuf c <> [].
Proof.
  intros s c R I P. pose proof (reach_cinv s c R I) as (_ & _ & H).
  rewrite P in H. tauto.
Qed.

(* isolation: a section performed by (or a fault hitting) consumer i -- subscribing,
   resuming, leaving by any route, being finalised -- changes nothing of any other
   consumer: not its buffer, not its received sequence, not its phase; nor the channel *)
Theorem isolation_thm : forall s o i j,
  actor o = Some i -> j <> i ->
  find j (conss (fst (step s o))) = find j (conss s) /\
  closed (fst (step s o)) = closed s /\ puts (fst (step s o)) = puts s.
Proof.
  intros s o i j A N. induction o as [x| |i' k|o i' L] using op_cases; try discriminate.
  - injection A as ->. simpl. destruct (find i (conss s)) eqn:F; auto.
    destruct (closed s) eqn:C; [destruct k|]; simpl; rewrite find_snoc; simpl;
      (destruct (find j (conss s)); [auto|]);
      (destruct (i =? j) eqn:E; [apply Nat.eqb_eq in E; congruence | auto]).
  - rewrite (actor_local o i' L) in A. injection A as ->. rewrite (step_local_shape s o i L).
    destruct (find i (conss s)) as [c|]; auto.
    destruct (local o (closed s) c) as [[c' r]|]; auto. simpl.
    rewrite find_upd by (intros; apply cid_lf).
    apply Nat.eqb_neq in N. rewrite N. auto.
Qed.

(* independence: the whole history of consumer j (its record at every moment: buffer,
   received sequence, phase, outcome) is a function of the puts, the closes and its own
   sections only -- erase every section of every other consumer from the run and j sees
   exactly the same.  "independent of how many other consumers exist or how fast they are" *)
Definition relevant (j : nat) (o : op) : bool :=
  match actor o with None => true | Some i => i =? j end.

Definition view (j : nat) (s : state) := (closed s, puts s, find j (conss s)).

Lemma step_irrelevant j o s : relevant j o = false -> view j (fst (step s o)) = view j s.
Proof.
  unfold relevant. destruct (actor o) as [i|] eqn:A; [|discriminate]. intros N. apply Nat.eqb_neq in N.
  destruct (isolation_thm s o i j A) as (E1 & E2 & E3); [congruence|].
  unfold view. rewrite E1, E2, E3. reflexivity.
Qed.

Lemma step_relevant : forall j o s1 s2, relevant j o = true -> view j s1 = view j s2 ->
  view j (fst (step s1 o)) = view j (fst (step s2 o)) /\ snd (step s1 o) = snd (step s2 o).
Proof.
  unfold view. intros j o s1 s2 Rl V. injection V as Vc Vp Vf.
  induction o as [x| |i k|o i L] using op_cases.
  - simpl. rewrite Vc. destruct (closed s2) eqn:C2; simpl; [rewrite Vc, C2, Vp, Vf; auto|].
    rewrite !find_map by apply cid_c_put. rewrite Vp, Vf. auto.
  - simpl. rewrite Vc. destruct (closed s2) eqn:C2; simpl; [rewrite Vc, C2, Vp, Vf; auto|].
    rewrite !find_map by apply cid_wake. rewrite Vp, Vf. auto.
  - apply Nat.eqb_eq in Rl. subst i. simpl. rewrite Vf, Vc, Vp.
    destruct (find j (conss s2)) eqn:F; simpl; [rewrite Vc, Vp, Vf, F; auto|].
    destruct (closed s2); [destruct k|]; simpl; rewrite !find_snoc, Vf, F; simpl;
      rewrite Nat.eqb_refl; auto.
  - unfold relevant in Rl. rewrite (actor_local o i L) in Rl. apply Nat.eqb_eq in Rl. subst i.
    rewrite (step_local_shape s1 o j L), (step_local_shape s2 o j L).
    rewrite Vf, Vc. destruct (find j (conss s2)) as [c|] eqn:F; simpl; [|rewrite Vc, Vp, Vf, F; auto].
    destruct (local o (closed s2) c) as [[c' r]|]; simpl; [|rewrite Vc, Vp, Vf, F; auto].
    rewrite !find_upd by (intros; apply cid_lf). rewrite Nat.eqb_refl, Vf, F, Vp. auto.
Qed.

(* the results consumer j sees from its own sections are the same in the erased run *)
Fixpoint outs_of (j : nat) (s : state) (tr : list op) : list out :=
  match tr with
  | [] => []
  | o :: tr' =>
      (if match actor o with Some i => i =? j | None => false end then [snd (step s o)] else [])
      ++ outs_of j (fst (step s o)) tr'
  end.

Lemma independence_both j tr : forall s1 s2, view j s1 = view j s2 ->
  view j (run s1 tr) = view j (run s2 (filter (relevant j) tr)) /\
  outs_of j s1 tr = outs_of j s2 (filter (relevant j) tr).
Proof.
  induction tr as [|a tr IH]; cbn [run outs_of filter]; intros s1 s2 V; [auto|].
  destruct (relevant j a) eqn:Rl.
  - destruct (step_relevant j a s1 s2 Rl V) as [V' O]. destruct (IH _ _ V') as [Hv Ho].
    cbn [run outs_of]. rewrite O, Ho. auto.
  - rewrite <- (step_irrelevant j a s1 Rl) in V. destruct (IH _ _ V) as [Hv Ho].
    split; [exact Hv|]. rewrite <- Ho.
    unfold relevant in Rl. destruct (actor a); [rewrite Rl; reflexivity|discriminate].
Qed.

Theorem independence_thm : forall j tr s1 s2, view j s1 = view j s2 ->
  view j (run s1 tr) = view j (run s2 (filter (relevant j) tr)).
Proof. intros j tr s1 s2 V. apply (independence_both j tr s1 s2 V). Qed.

Theorem independence_outs_thm : forall j tr s1 s2, view j s1 = view j s2 ->
  outs_of j s1 tr = outs_of j s2 (filter (relevant j) tr).
Proof. intros j tr s1 s2 V. apply (independence_both j tr s1 s2 V). Qed.

(* used by the Examples of props/C11.v: an early iterating consumer (0), a late one (1), a single
   get (2) that is cancelled, close with pending messages *)
Definition demo : list op :=
  [Sub 0 Iter; Put 10; Sub 1 Iter; Sub 2 Single; Put 11; Fault 2; Resume 0; Put 12; Close;
   Next 0; Resume 1; Resume 0; Next 1; Next 0; Resume 1; Resume 0; Next 0; Leave 1; Finalise 1].

