(** Discipline lemmas for usim.Lock (DESIGN.md 2.2): the object-state effect of every atomic section of
    the machine's lock code (Lib.v: [lock_enter], [lock_exit], the subscription around the wait) IS a
    transition of the protocol LockProto, under an explicit relation [link] between the machine's object
    state and a protocol state.  Hence every invariant proved over [LockProto.reachable] holds of every
    machine object state reached through those sections.

    The sections are functions on [objs] ([sec_enter], [sec_wake], [sec_foreign], [sec_exit]) with one
    simulation lemma each; that they are what [exec] does with the programs of Lib.v is shown by symbolic
    execution for any machine state, stack and continuation. *)
From Coq Require Import ZArith List Bool Arith Lia.
From RecordUpdate Require Import RecordSet.
From Usim Require Import ListFacts XTime Tables Kernel Machine MachineProps Lib WaitSpecs.
From Usim Require LockProto LockProtoProps.
Import ListNotations.
Import RecordSetNotations.

Module LP := LockProto.
Module LPP := LockProtoProps.

(** a primitive returns a new object state and kernel requests; the stepper ([step1], case [Prim]) applies
    the requests to the kernel of the state in which the primitive started *)
Definition app_ops (o : objs) (r : objs * list kop) : objs :=
  set_kern (fst r) (kapply_all (kern o) (snd r)).

Lemma get_notif_set_notif o n x : n < length (notifs o) -> get_notif (set_notif o n x) n = x.
Proof. intros H. unfold get_notif, set_notif. cbn. apply nth_list_upd_eq. exact H. Qed.
Lemma get_notif_set_notif_ne o n n' x : n' <> n -> get_notif (set_notif o n x) n' = get_notif o n'.
Proof. intros H. unfold get_notif, set_notif. cbn. apply nth_list_upd_ne. exact H. Qed.

(** * Plain notifications and their open subscriptions

    [wk a] (ghost) is the wake-up interrupt of the open subscription of activity [a]: the fresh signal
    that [Notification.__subscription__] allocated for it.  While [a] is queued ([wt]) the pair [(a, wk a)] is
    in the waiting list of the notification; once it is woken ([wo]: popped by [__awake_next__] or
    [__awake_all__]) the signal lives only in the kernel ([scheduled]) and in the continuation of [a]. *)
Record subs (o : objs) (n : nid) (wk : aid -> sid) (wt wo : list aid) : Prop := {
  s_lt : n < length (notifs o);
  s_plain : nk (get_notif o n) = NPlain;
  s_waiting : Machine.waiting (get_notif o n) = map (fun a => (a, wk a)) wt;
  s_woken : forall a, In a wo -> is_scheduled o (wk a) = true;
  s_queued : forall a, In a wt -> is_scheduled o (wk a) = false;
  s_alloc : forall a, In a (wo ++ wt) -> wk a < length (sigs o);
  s_inj : NoDup (map wk wt)
}.

(** what an operation on notification [n] leaves alone; [X]: the wake-ups it may schedule *)
Record notif_fp (o o' : objs) (n : nid) (X : list sid) : Prop := {
  nf_queues : queues o' = queues o;
  nf_locks : locks o' = locks o;
  nf_nlen : length (notifs o') = length (notifs o);
  nf_notif : forall n', n' <> n -> get_notif o' n' = get_notif o n';
  nf_sigs : length (sigs o) <= length (sigs o');
  nf_sched : forall w, ~ In w X -> is_scheduled o' w = is_scheduled o w
}.

Definition wsids (o : objs) (n : nid) : list sid := map snd (Machine.waiting (get_notif o n)).

Lemma subs_frame o o' n wk wt wo :
  subs o n wk wt wo ->
  length (notifs o) <= length (notifs o') -> length (sigs o) <= length (sigs o') ->
  get_notif o' n = get_notif o n ->
  (forall a, In a (wo ++ wt) -> is_scheduled o' (wk a) = is_scheduled o (wk a)) ->
  subs o' n wk wt wo.
Proof.
  intros [Slt Spl Swt Swo Squ Sal Sinj] Hn Hs En Es. constructor; rewrite ?En; auto.
  - eapply Nat.lt_le_trans; eauto.
  - intros a Ha. rewrite Es; auto using in_or_app.
  - intros a Ha. rewrite Es; auto using in_or_app.
  - intros a Ha. eapply Nat.lt_le_trans; eauto.
Qed.

Lemma set_waiting_fp o n W X : notif_fp o (set_notif o n ((get_notif o n) <| Machine.waiting := W |>)) n X.
Proof.
  constructor; auto.
  - apply length_list_upd.
  - intros n' Hn'. apply get_notif_set_notif_ne. exact Hn'.
Qed.

(** [Notification.__subscribe__] with the fresh wake-up that [__subscription__] has just allocated *)
Lemma subscribe_fp o n a X :
  notif_fp o (plain_subscribe (o <| sigs := sigs o ++ [SKWake] |>) n a (length (sigs o))) n X.
Proof.
  constructor; auto.
  - apply length_list_upd.
  - intros n' Hn'. unfold plain_subscribe. rewrite get_notif_set_notif_ne by exact Hn'. reflexivity.
  - cbn. rewrite app_length. apply Nat.le_add_r.
Qed.

Lemma subs_subscribe o n wk wt wo a :
  subs o n wk wt wo -> ~ In a wt -> ~ In a wo -> is_scheduled o (length (sigs o)) = false ->
  subs (plain_subscribe (o <| sigs := sigs o ++ [SKWake] |>) n a (length (sigs o))) n
       (LP.upd wk a (length (sigs o))) (wt ++ [a]) wo.
Proof.
  intros [Slt Spl Swt Swo Squ Sal Sinj] Nt No Fr. set (w := length (sigs o)).
  assert (Old : forall b, In b (wo ++ wt) -> LP.upd wk a w b = wk b).
  { intros b Hb. apply LPP.upd_other. intros ->. apply in_app_or in Hb as [Hb|Hb]; auto. }
  assert (Oldt : forall b, In b wt -> LP.upd wk a w b = wk b) by auto using in_or_app.
  unfold plain_subscribe. constructor; rewrite ?get_notif_set_notif by exact Slt.
  - cbn. rewrite length_list_upd. exact Slt.
  - exact Spl.
  - cbn. change (Machine.waiting (get_notif o n) ++ [(a, w)] = map (fun b => (b, LP.upd wk a w b)) (wt ++ [a])).
    rewrite Swt, map_app. cbn. rewrite LPP.upd_same. f_equal.
    apply map_ext_in. intros b Hb. now rewrite Oldt.
  - intros b Hb. rewrite Old by auto using in_or_app. apply Swo, Hb.
  - intros b Hb. apply in_app_or in Hb as [Hb|[<-|[]]].
    + rewrite Oldt by exact Hb. apply Squ, Hb.
    + rewrite LPP.upd_same. exact Fr.
  - intros b Hb. cbn. rewrite app_length, Nat.add_1_r. fold w. apply Nat.lt_succ_r.
    rewrite app_assoc in Hb. apply in_app_or in Hb as [Hb|[<-|[]]].
    + rewrite Old by exact Hb. apply Nat.lt_le_incl, Sal, Hb.
    + rewrite LPP.upd_same. apply Nat.le_refl.
  - rewrite map_app, (map_ext_in _ wk wt Oldt). cbn. rewrite LPP.upd_same.
    apply NoDup_snoc; [exact Sinj|]. intros Hw. apply in_map_iff in Hw as (b & Eb & Hb).
    apply (Nat.lt_irrefl w). rewrite <- Eb at 1. apply Sal. auto using in_or_app.
Qed.

Lemma remove_pair_map (wk : aid -> sid) a wt :
  remove_pair a (wk a) (map (fun b => (b, wk b)) wt) = map (fun b => (b, wk b)) (LP.rem1 a wt).
Proof.
  induction wt as [|b r IH]; cbn; auto. destruct (Nat.eqb_spec b a) as [->|N].
  - rewrite !Nat.eqb_refl. reflexivity.
  - rewrite (proj2 (Nat.eqb_neq a b)) by auto. cbn. f_equal. exact IH.
Qed.

Lemma NoDup_map_rem1 (f : aid -> nat) a l : NoDup (map f l) -> NoDup (map f (LP.rem1 a l)).
Proof.
  induction l as [|b r IH]; cbn; auto. intros H. apply NoDup_cons_iff in H as [H1 H2].
  destruct (Nat.eqb_spec b a); auto. cbn. constructor; auto.
  intros Hb. apply H1. apply in_map_iff in Hb as (c & Ec & Hc). apply in_map_iff. exists c. split; auto.
  eapply LPP.In_rem1; eauto.
Qed.

Lemma In_remove_pair a w p l : In p (remove_pair a w l) -> In p l.
Proof.
  induction l as [|[a' w'] r IH]; cbn; auto. destruct (Nat.eqb a a' && Nat.eqb w w'); cbn; intuition.
Qed.

(** [Notification.__unsubscribe__]: revoke the wake-up if it is scheduled, else leave the waiting list *)
Lemma unsubscribe_fp o n a w X : notif_fp o (app_ops o (plain_unsubscribe o n a w)) n X.
Proof.
  unfold plain_unsubscribe. destruct (is_scheduled o w).
  - constructor; auto.
  - apply (set_waiting_fp o n).
Qed.

Lemma unsubscribe_wsids o n a w : n < length (notifs o) ->
  incl (wsids (app_ops o (plain_unsubscribe o n a w)) n) (wsids o n).
Proof.
  intros Hn. unfold wsids, plain_unsubscribe. destruct (is_scheduled o w); [apply incl_refl|].
  change (get_notif (app_ops o (?x, [])) n) with (get_notif x n).
  rewrite get_notif_set_notif by exact Hn. cbn.
  intros s Hs. apply in_map_iff in Hs as (p & <- & Hp). apply in_map. eapply In_remove_pair; eauto.
Qed.

Lemma subs_unsubscribe o n wk wt wo a :
  subs o n wk wt wo -> In a (wo ++ wt) ->
  subs (app_ops o (plain_unsubscribe o n a (wk a))) n wk
       (if LP.mem a wo then wt else LP.rem1 a wt) (if LP.mem a wo then LP.rem1 a wo else wo).
Proof.
  intros [Slt Spl Swt Swo Squ Sal Sinj] Ha. unfold plain_unsubscribe. destruct (LP.mem a wo) eqn:M.
  - apply LPP.mem_In in M. rewrite (Swo a M).
    constructor; auto.
    + intros b Hb. apply Swo. eapply LPP.In_rem1; eauto.
    + intros b Hb. apply Sal, (incl_app_app (fun c => LPP.In_rem1 a c wo) (incl_refl wt) b Hb).
  - apply LPP.mem_false in M. apply in_app_or in Ha as [Ha|Ha]; [contradiction|].
    rewrite (Squ a Ha).
    constructor; change (get_notif (app_ops o (?x, [])) n) with (get_notif x n);
      rewrite ?get_notif_set_notif by exact Slt; auto.
    + cbn. rewrite length_list_upd. exact Slt.
    + cbn. rewrite Swt. apply remove_pair_map.
    + intros b Hb. apply Squ. eapply LPP.In_rem1; eauto.
    + intros b Hb. apply Sal, (incl_app_app (incl_refl wo) (fun c => LPP.In_rem1 a c wt) b Hb).
    + apply NoDup_map_rem1. exact Sinj.
Qed.

(** [Notification.__awake_next__]: the oldest waiter is popped and its wake-up scheduled *)
Definition hd_list {A} (l : list A) : list A := match l with [] => [] | x :: _ => [x] end.

Lemma awake_next_fp o n : notif_fp o (app_ops o (fst (awake_next o n))) n (wsids o n).
Proof.
  unfold awake_next, wsids. destruct (Machine.waiting (get_notif o n)) as [|[a s] r]; cbn [fst].
  - unfold app_ops. cbn [fst snd kapply_all fold_left]. rewrite set_kern_same. constructor; auto.
  - destruct (set_waiting_fp o n r []). constructor; auto.
    intros w Hw. change (is_scheduled (app_ops o (?x, [KNow a (Some s)])) w) with (Nat.eqb w s || is_scheduled o w).
    rewrite (proj2 (Nat.eqb_neq w s)); [reflexivity|]. intros ->. apply Hw. now left.
Qed.

Lemma subs_awake_next o n wk wt wo :
  subs o n wk wt wo -> subs (app_ops o (fst (awake_next o n))) n wk (tl wt) (wo ++ hd_list wt).
Proof.
  intros K. pose proof K as [Slt Spl Swt Swo Squ Sal Sinj]. unfold awake_next.
  destruct wt as [|b r]; cbn [map] in Swt; rewrite Swt; cbn [fst tl hd_list].
  - rewrite app_nil_r. apply (subs_frame o); auto.
  - assert (S : forall w, is_scheduled (app_ops o (fst (awake_next o n))) w = Nat.eqb w (wk b) || is_scheduled o w).
    { unfold awake_next. rewrite Swt. reflexivity. }
    unfold awake_next in S. rewrite Swt in S. cbn [fst] in S.
    cbn in Sinj. apply NoDup_cons_iff in Sinj as [I1 I2].
    constructor; change (get_notif (app_ops o (?x, ?k)) n) with (get_notif x n);
      rewrite ?get_notif_set_notif by exact Slt; auto.
    + cbn. rewrite length_list_upd. exact Slt.
    + intros c Hc. rewrite S. apply in_app_or in Hc as [Hc|[<-|[]]].
      * rewrite (Swo c Hc). apply orb_true_r.
      * rewrite Nat.eqb_refl. reflexivity.
    + intros c Hc. rewrite S, (Squ c) by (now right).
      rewrite (proj2 (Nat.eqb_neq (wk c) (wk b))); auto.
      intros Ec. apply I1. rewrite <- Ec. apply in_map. exact Hc.
    + intros c Hc. apply Sal. rewrite <- app_assoc in Hc. exact Hc.
Qed.

(** [Notification.__awake_all__] *)
Lemma scheduled_kapply_all_now (ps : list (aid * sid)) : forall k w,
  mem_sid w (scheduled (kapply_all k (map (fun '(a, s) => KNow a (Some s)) ps)))
  = existsb (Nat.eqb w) (map snd ps) || mem_sid w (scheduled k).
Proof.
  induction ps as [|[a s] r IH]; intros k w; [reflexivity|].
  change (kapply_all k (map _ ((a, s) :: r)))
    with (kapply_all (kapply k (KNow a (Some s))) (map (fun '(a0, s0) => KNow a0 (Some s0)) r)).
  rewrite IH. change (scheduled (kapply k (KNow a (Some s)))) with (s :: scheduled k).
  change (mem_sid w (s :: scheduled k)) with (Nat.eqb w s || mem_sid w (scheduled k)). cbn [map snd existsb].
  destruct (existsb (Nat.eqb w) (map snd r)), (w =? s), (mem_sid w (scheduled k)); reflexivity.
Qed.

Lemma awake_all_sched o n w :
  is_scheduled (app_ops o (awake_all o n)) w = existsb (Nat.eqb w) (wsids o n) || is_scheduled o w.
Proof. apply scheduled_kapply_all_now. Qed.

Lemma awake_all_fp o n : notif_fp o (app_ops o (awake_all o n)) n (wsids o n).
Proof.
  destruct (set_waiting_fp o n [] []). constructor; auto.
  intros w Hw. rewrite awake_all_sched. destruct (existsb _ _) eqn:E; [|reflexivity].
  apply existsb_exists in E as (s & Hs & Es). apply Nat.eqb_eq in Es. subst. contradiction.
Qed.

Lemma subs_awake_all o n wk wt wo :
  subs o n wk wt wo -> subs (app_ops o (awake_all o n)) n wk [] (wo ++ wt).
Proof.
  intros [Slt Spl Swt Swo Squ Sal Sinj]. constructor; change (get_notif (app_ops o (awake_all o n)) n)
    with (get_notif (set_notif o n ((get_notif o n) <| Machine.waiting := [] |>)) n);
    rewrite ?get_notif_set_notif by exact Slt; auto.
  - cbn. rewrite length_list_upd. exact Slt.
  - intros c Hc. rewrite awake_all_sched. apply in_app_or in Hc as [Hc|Hc].
    + rewrite (Swo c Hc). apply orb_true_r.
    + unfold wsids. rewrite Swt, map_map. cbn. apply orb_true_iff. left. apply existsb_exists.
      exists (wk c). split; [apply in_map; exact Hc | apply Nat.eqb_refl].
  - intros c [].
  - intros c Hc. apply Sal. rewrite app_nil_r in Hc. exact Hc.
  - constructor.
Qed.

Definition lnotif (o : objs) (l : nat) : nid := l_notif (get_lock o l).

Lemma get_lock_set_lock o l x : l < length (locks o) -> get_lock (set_lock o l x) l = x.
Proof. intros H. unfold get_lock, set_lock. cbn. apply nth_list_upd_eq. exact H. Qed.
Lemma get_lock_set_lock_ne o l l' x : l' <> l -> get_lock (set_lock o l x) l' = get_lock o l'.
Proof. intros H. unfold get_lock, set_lock. cbn. apply nth_list_upd_ne. exact H. Qed.

(** * The relation between a machine object state and a protocol state

    The lock record and the subscriptions of the lock's notification ([subs]), written out.  The relation
    does not mention the ghost components [ph], [tick], [ntick], [grants] of the protocol state at all:
    they are free, and are pinned down by [LockProtoProps.inv]. *)
Record linkf (o : objs) (l : nat) (wk : aid -> sid)
             (ow : option aid) (d : nat) (wt wo : list aid) : Prop := {
  k_lock : l < length (locks o);
  k_notif : lnotif o l < length (notifs o);
  k_plain : nk (get_notif o (lnotif o l)) = NPlain;
  k_owner : l_owner (get_lock o l) = ow;
  k_depth : l_depth (get_lock o l) = Z.of_nat d;
  k_waiting : Machine.waiting (get_notif o (lnotif o l)) = map (fun a => (a, wk a)) wt;
  k_woken : forall a, In a wo -> is_scheduled o (wk a) = true;
  k_queued : forall a, In a wt -> is_scheduled o (wk a) = false;
  k_alloc : forall a, In a (wo ++ wt) -> wk a < length (sigs o);
  k_inj : NoDup (map wk wt)
}.

Definition link (o : objs) (l : nat) (wk : aid -> sid) (s : LP.st) : Prop :=
  linkf o l wk (LP.owner s) (LP.depth s) (LP.waiting s) (LP.woken s).

Lemma linkf_subs o l wk ow d wt wo :
  linkf o l wk ow d wt wo ->
  l < length (locks o) /\ l_owner (get_lock o l) = ow /\ l_depth (get_lock o l) = Z.of_nat d /\
  subs o (lnotif o l) wk wt wo.
Proof. intros []. repeat split; assumption. Qed.

Lemma linkf_intro o l wk ow d wt wo :
  l < length (locks o) -> l_owner (get_lock o l) = ow -> l_depth (get_lock o l) = Z.of_nat d ->
  subs o (lnotif o l) wk wt wo -> linkf o l wk ow d wt wo.
Proof. intros ? ? ? []. constructor; assumption. Qed.

Lemma get_lock_locks o o' l : locks o' = locks o -> get_lock o' l = get_lock o l.
Proof. intros E. unfold get_lock. now rewrite E. Qed.
Lemma lnotif_locks o o' l : locks o' = locks o -> lnotif o' l = lnotif o l.
Proof. intros E. unfold lnotif. now rewrite (get_lock_locks o o' l E). Qed.

Lemma linkf_move o o' l wk wk' ow d wt wo wt' wo' :
  linkf o l wk ow d wt wo -> locks o' = locks o -> subs o' (lnotif o l) wk' wt' wo' ->
  linkf o' l wk' ow d wt' wo'.
Proof.
  intros K El S. apply linkf_subs in K as (L & O & D & _).
  apply linkf_intro; unfold lnotif; rewrite ?(get_lock_locks o o' l El), ?El; auto.
Qed.

(** anything that leaves the lock record, its notification, the kernel's [scheduled] flags of the open
    wake-ups alone and only allocates keeps the relation: this is the frame condition for all the other
    code of the machine (other locks, queues, scopes, the kernel popping activations, ...) *)
Lemma link_frame o o' l wk s :
  link o l wk s ->
  length (locks o') = length (locks o) -> length (notifs o) <= length (notifs o') ->
  length (sigs o) <= length (sigs o') ->
  get_lock o' l = get_lock o l ->
  get_notif o' (lnotif o l) = get_notif o (lnotif o l) ->
  (forall a, In a (LP.woken s ++ LP.waiting s) -> is_scheduled o' (wk a) = is_scheduled o (wk a)) ->
  link o' l wk s.
Proof.
  intros K Hl Hn Hs El En Es. apply linkf_subs in K as (L & O & D & S).
  apply linkf_intro; unfold lnotif; rewrite ?El, ?Hl; auto. apply (subs_frame o); auto.
Qed.

Lemma linkf_set_lock o l wk ow d wt wo x ow' d' :
  linkf o l wk ow d wt wo ->
  l_notif x = lnotif o l -> l_owner x = ow' -> l_depth x = Z.of_nat d' ->
  linkf (set_lock o l x) l wk ow' d' wt wo.
Proof.
  intros K Hn Ho Hd. apply linkf_subs in K as (L & O & D & S).
  apply linkf_intro; unfold lnotif; rewrite ?(get_lock_set_lock o l x L), ?Hn; auto.
  - cbn. now rewrite length_list_upd.
  - apply (subs_frame o); auto.
Qed.

Definition sec_enter_wait (o : objs) (l : nat) (a : aid) : objs :=
  plain_subscribe (o <| sigs := sigs o ++ [SKWake] |>) (lnotif o l) a (length (sigs o)).

Lemma linkf_subscribe o l wk ow d wt wo a :
  linkf o l wk ow d wt wo -> ~ In a wt -> ~ In a wo ->
  is_scheduled o (length (sigs o)) = false ->
  linkf (sec_enter_wait o l a) l (LP.upd wk a (length (sigs o))) ow d (wt ++ [a]) wo.
Proof.
  intros K Nt No Fr. destruct (linkf_subs _ _ _ _ _ _ _ K) as (_ & _ & _ & S).
  apply (linkf_move o (sec_enter_wait o l a) _ _ _ _ _ _ _ _ _ K eq_refl). apply subs_subscribe; auto.
Qed.

Lemma link_unsubscribe o l wk s a :
  link o l wk s -> In a (LP.woken s ++ LP.waiting s) ->
  link (app_ops o (plain_unsubscribe o (lnotif o l) a (wk a))) l wk (LP.unsubscribe a s).
Proof.
  intros K Ha. destruct (linkf_subs _ _ _ _ _ _ _ K) as (_ & _ & _ & S).
  pose proof (linkf_move o _ _ _ _ _ _ _ _ _ _ K (nf_locks _ _ _ _ (unsubscribe_fp o (lnotif o l) a (wk a) []))
                (subs_unsubscribe _ _ _ _ _ a S Ha)) as K1.
  unfold link, LP.unsubscribe. destruct (LP.mem a (LP.woken s)); exact K1.
Qed.

(** [Lock.__release__] is [Notification.__awake_next__] followed by the assignment of the owner *)
Lemma lock_release_eq o l :
  app_ops o (lock_release o l)
  = set_lock (app_ops o (fst (awake_next o (lnotif o l)))) l
             ((get_lock o l) <| l_owner := option_map fst (hd_error (Machine.waiting (get_notif o (lnotif o l)))) |>).
Proof.
  unfold lock_release, awake_next, lnotif.
  destruct (Machine.waiting (get_notif o (l_notif (get_lock o l)))) as [|[b w] r]; reflexivity.
Qed.

Lemma link_release o l wk s :
  link o l wk s -> link (app_ops o (lock_release o l)) l wk (LP.release s).
Proof.
  intros K. destruct (linkf_subs _ _ _ _ _ _ _ K) as (_ & _ & _ & S).
  pose proof (linkf_move o _ _ _ _ _ _ _ _ _ _ K (nf_locks _ _ _ _ (awake_next_fp o (lnotif o l)))
                (subs_awake_next _ _ _ _ _ S)) as K1.
  rewrite lock_release_eq, (s_waiting _ _ _ _ _ S).
  apply (linkf_set_lock _ _ _ _ _ _ _ ((get_lock o l) <| l_owner := hd_error (LP.waiting s) |>)
           (hd_error (LP.waiting s)) (LP.depth s)) in K1.
  - unfold link, LP.release. destruct (LP.waiting s); cbn in *; rewrite ?app_nil_r in K1; exact K1.
  - now rewrite (lnotif_locks o _ l (nf_locks _ _ _ _ (awake_next_fp o (lnotif o l)))).
  - reflexivity.
  - apply K.
Qed.

(** the executable part of the projection: the fields of the real objects as logged by the event replay
    of C09 ([LockProto.project]), read off the machine state.  The designated waiters are found among
    the candidates [cands] (e.g. all activities) by the [scheduled] flag of their wake-up. *)
Definition proj_lock (o : objs) (l : nat) (wk : aid -> sid) (cands : list aid) : LP.proj :=
  (match l_owner (get_lock o l) with None => 0 | Some a => S a end,
   Z.to_nat (l_depth (get_lock o l)),
   map fst (Machine.waiting (get_notif o (lnotif o l))),
   filter (fun a => is_scheduled o (wk a)) cands).

Lemma map_fst_pairs (wk : aid -> sid) wt : map fst (map (fun a => (a, wk a)) wt) = wt.
Proof. induction wt; cbn; congruence. Qed.

Lemma proj_lock_project o l wk s :
  link o l wk s -> proj_lock o l wk (LP.woken s ++ LP.waiting s) = LP.project s.
Proof.
  intros [_ _ _ Ow De Wa Wo Qu _ _]. unfold proj_lock, LP.project.
  rewrite Ow, De, Wa, Nat2Z.id, map_fst_pairs, filter_app.
  rewrite (filter_all _ (LP.woken s)) by auto. rewrite (filter_none _ (LP.waiting s)) by auto.
  rewrite app_nil_r. reflexivity.
Qed.

Definition bump_depth (o : objs) (l : nat) : objs :=
  let x := get_lock o l in set_lock o l (x <| l_depth := (l_depth x + 1)%Z |>).
Definition drop_depth (o : objs) (l : nat) : objs :=
  let x := get_lock o l in set_lock o l (x <| l_depth := (l_depth x - 1)%Z |>).
Definition take_free (o : objs) (l : nat) (a : aid) : objs :=
  set_lock o l ((get_lock o l) <| l_owner := Some a |>).

Lemma linkf_bump o l wk ow d wt wo :
  linkf o l wk ow d wt wo -> linkf (bump_depth o l) l wk ow (S d) wt wo.
Proof.
  intros K. unfold bump_depth. apply (linkf_set_lock o l wk ow d wt wo _ ow (S d) K); cbn; auto.
  - apply K.
  - rewrite (k_depth _ _ _ _ _ _ _ K). lia.
Qed.
Lemma linkf_drop o l wk ow d wt wo :
  linkf o l wk ow (S d) wt wo -> linkf (drop_depth o l) l wk ow d wt wo.
Proof.
  intros K. unfold drop_depth. apply (linkf_set_lock o l wk ow (S d) wt wo _ ow d K); cbn; auto.
  - apply K.
  - rewrite (k_depth _ _ _ _ _ _ _ K). lia.
Qed.
Lemma linkf_take o l wk ow d wt wo a :
  linkf o l wk ow d wt wo -> linkf (take_free o l a) l wk (Some a) d wt wo.
Proof.
  intros K. unfold take_free. apply (linkf_set_lock o l wk ow d wt wo _ (Some a) d K); cbn; auto.
  apply K.
Qed.

(** ** Request: [Lock.__aenter__] up to its first suspension or its return.
    free lock: owner := me, depth += 1;  owner re-enters: depth += 1;
    held by somebody else: a fresh wake-up is allocated and subscribed ([Notification.__subscription__] up
    to its [yield]), then the activity hibernates. *)
Definition sec_enter (o : objs) (l : nat) (a : aid) : objs :=
  match l_owner (get_lock o l) with
  | None => bump_depth (take_free o l a) l
  | Some b => if Nat.eqb a b then bump_depth o l else sec_enter_wait o l a
  end.
(** the ghost [wk] after the section: a request that has to wait records its fresh wake-up *)
Definition wk_enter (o : objs) (l : nat) (a : aid) (wk : aid -> sid) : aid -> sid :=
  match l_owner (get_lock o l) with
  | None => wk
  | Some b => if Nat.eqb a b then wk else LP.upd wk a (length (sigs o))
  end.

(** enabled-conditions: the requesting activity is running, i.e. not parked in this lock's queue
    ([ph s a <> Waiting]: the environment discipline of LockProto), and, when it has to wait, the wake-up
    that [__subscription__] allocates is fresh (never scheduled). *)
Lemma sim_enter o l wk s a :
  link o l wk s -> LPP.inv s -> LP.ph s a <> LP.Waiting ->
  (forall b, l_owner (get_lock o l) = Some b -> b <> a -> is_scheduled o (length (sigs o)) = false) ->
  exists s', LP.step s (LP.Request a) = Some s' /\ link (sec_enter o l a) l (wk_enter o l a wk) s'.
Proof.
  intros K I Hw Fr. unfold link in *. unfold sec_enter, wk_enter. rewrite (k_owner _ _ _ _ _ _ _ K) in *.
  pose proof (LPP.iC _ I) as C. unfold LPP.inv_owner in C. cbn [LP.step].
  destruct (LP.owner s) as [b|] eqn:O.
  - destruct C as [C1 C2]. destruct (Nat.eqb_spec a b) as [<-|N].
    + destruct (LP.ph s a) as [| |n] eqn:P; [contradiction|congruence|].
      rewrite Nat.eqb_refl. eexists. split; [reflexivity|]. cbn. apply linkf_bump. exact K.
    + destruct (LP.ph s a) as [| |n] eqn:P; [|congruence|exfalso; apply N; eapply C1; eauto].
      rewrite (proj2 (Nat.eqb_neq b a)) by auto. eexists. split; [reflexivity|]. cbn.
      assert (Na : ~ In a (LP.pendq s)) by (rewrite <- (LPP.iA _ I); congruence).
      unfold LP.pendq in Na. rewrite in_app_iff in Na.
      apply linkf_subscribe; eauto.
  - destruct C as (C1 & C2 & C3 & C4).
    destruct (LP.ph s a) as [| |n] eqn:P; [|congruence|exfalso; eapply C4; eauto].
    eexists. split; [reflexivity|]. cbn. apply linkf_bump. eapply linkf_take. exact K.
Qed.

Theorem sim_request o l wk s a :
  link o l wk s -> LPP.inv s -> LP.ph s a <> LP.Waiting ->
  is_scheduled o (length (sigs o)) = false ->
  exists s', LP.step s (LP.Request a) = Some s' /\ link (sec_enter o l a) l (wk_enter o l a wk) s'.
Proof. intros K I P Fr. apply sim_enter; auto. Qed.

Lemma sim_request_immediate o l wk s a :
  link o l wk s -> LPP.inv s -> LP.ph s a <> LP.Waiting ->
  (l_owner (get_lock o l) = None \/ l_owner (get_lock o l) = Some a) ->
  exists s', LP.step s (LP.Request a) = Some s' /\ link (sec_enter o l a) l wk s'.
Proof.
  intros K I P O.
  destruct (sim_enter o l wk s a K I P) as (s' & St & K'); [intros b Hb Nb; destruct O; congruence|].
  exists s'. split; [exact St|].
  unfold wk_enter in K'. destruct O as [E|E]; rewrite E, ?Nat.eqb_refl in K'; exact K'.
Qed.

(** ** DeliverWake: the designated waiter is resumed by its own wake-up: the [finally] of
    [__subscription__] ([__unsubscribe__]: the wake-up is scheduled, so it is revoked), then [depth += 1] *)
Definition sec_wake (o : objs) (l : nat) (a : aid) (w : sid) : objs :=
  bump_depth (app_ops o (plain_unsubscribe o (lnotif o l) a w)) l.

(** enabled-condition: the wake-up of [a] is in flight ([a] is the designated owner) *)
Theorem sim_wake o l wk s a :
  link o l wk s -> LPP.inv s -> LP.ph s a = LP.Waiting -> In a (LP.woken s) ->
  exists s', LP.step s (LP.DeliverWake a) = Some s' /\ link (sec_wake o l a (wk a)) l wk s'.
Proof.
  intros K I P Hw. cbn [LP.step]. rewrite P. rewrite (proj2 (LPP.mem_In _ _) Hw).
  eexists. split; [reflexivity|]. unfold link, sec_wake. cbn. apply linkf_bump.
  apply (link_unsubscribe o l wk s a K). apply in_or_app. auto.
Qed.

(** ** DeliverForeign: anything else is thrown into the waiter: [__unsubscribe__] (revoke the wake-up if
    it is scheduled, else leave the waiting list), then the handler of [__aenter__]:
    [if self._owner == current_activity: self.__release__()] *)
Definition sec_foreign (o : objs) (l : nat) (a : aid) (w : sid) : objs :=
  let o1 := app_ops o (plain_unsubscribe o (lnotif o l) a w) in
  if owner_is o1 l a then app_ops o1 (lock_release o1 l) else o1.

Lemma owner_is_link o l wk s a : link o l wk s -> owner_is o l a = LP.is_owner s a.
Proof.
  intros K. unfold owner_is, LP.is_owner. rewrite (k_owner _ _ _ _ _ _ _ K).
  destruct (LP.owner s); auto. apply Nat.eqb_sym.
Qed.

Theorem sim_foreign o l wk s a :
  link o l wk s -> LPP.inv s -> LP.ph s a = LP.Waiting ->
  exists s', LP.step s (LP.DeliverForeign a) = Some s' /\ link (sec_foreign o l a (wk a)) l wk s'.
Proof.
  intros K I P. cbn [LP.step]. rewrite P. eexists. split; [reflexivity|].
  pose proof (link_unsubscribe o l wk s a K (proj1 (LPP.iA _ I a) P)) as K1.
  unfold sec_foreign. cbv zeta. rewrite (owner_is_link _ _ _ _ a K1).
  destruct (LP.is_owner (LP.unsubscribe a s) a).
  - apply link_release in K1. exact K1.
  - exact K1.
Qed.

(** ** Exit: [Lock.__aexit__]: depth -= 1, release at zero.  The debugging assertion in front of it is
    [exit_guard]; when it fails nothing happens to the objects and AssertionError is raised (finding D14):
    see [lock_exit_runs]. *)
Definition sec_exit (o : objs) (l : nat) : objs :=
  let o1 := drop_depth o l in
  if (l_depth (get_lock o l) - 1 =? 0)%Z then app_ops o1 (lock_release o1 l) else o1.

(** [assert exc_type is GeneratorExit or self._owner == loop.activity]; [cur] is the activity the LOOP is
    running, which differs from the activity that executes [__aexit__] when the latter is being closed by
    [cur] ([coroutine.close()] runs the victim's [finally] blocks inside the closer's activation) *)
Definition exit_guard (o : objs) (l : nat) (exc : option exn) (cur : aid) : bool :=
  match exc with Some EGenExit => true | _ => owner_is o l cur end.

(** enabled-condition: [a] is inside the block.  By [mutex] it is then the owner, so the guard holds
    whenever the exiting activity is the one the loop runs ([exit_guard_owner]). *)
Theorem sim_exit o l wk s a n :
  link o l wk s -> LPP.inv s -> LP.ph s a = LP.Inside (S n) ->
  exists s', LP.step s (LP.Exit a) = Some s' /\ link (sec_exit o l) l wk s'.
Proof.
  intros K I P. destruct (LPP.inside_owner _ I _ _ P) as (O & D & _ & W).
  cbn [LP.step]. rewrite P. eexists. split; [reflexivity|].
  unfold link in K. rewrite D in K. unfold sec_exit. cbv zeta.
  rewrite (k_depth _ _ _ _ _ _ _ K). cbn [LP.depth]. rewrite D. cbn [pred].
  set (s1 := LP.mk _ _ _ _ _ _ _ _).
  assert (K1 : link (drop_depth o l) l wk s1) by (unfold link; cbn; apply linkf_drop; exact K).
  replace (Z.of_nat (S n) - 1 =? 0)%Z with (Nat.eqb n 0).
  2:{ destruct n; [reflexivity|]. symmetry. apply Z.eqb_neq. lia. }
  destruct (Nat.eqb n 0).
  - apply link_release. exact K1.
  - exact K1.
Qed.

Lemma exit_guard_owner o l wk s a exc :
  link o l wk s -> LP.owner s = Some a -> exit_guard o l exc a = true.
Proof.
  intros K O. unfold exit_guard. rewrite (owner_is_link _ _ _ _ a K). unfold LP.is_owner. rewrite O.
  rewrite Nat.eqb_refl. destruct exc as [[]|]; reflexivity.
Qed.

(** the guard fails exactly when the exception is not GeneratorExit and the loop runs somebody else: the
    holder is being closed by another activity and an inner scope/handler has turned the GeneratorExit into
    another exception (D14).  The objects are then untouched ([lock_exit_runs]): the protocol makes no
    step, the lock stays with a holder whose block is gone. *)
Lemma exit_guard_fails_iff o l exc cur :
  exit_guard o l exc cur = false <-> exc <> Some EGenExit /\ l_owner (get_lock o l) <> Some cur.
Proof.
  unfold exit_guard, owner_is. split.
  - intros H. split.
    + intros ->. discriminate.
    + intros E. rewrite E, Nat.eqb_refl in H. destruct exc as [[]|]; discriminate.
  - intros [H1 H2].
    assert (G : match l_owner (get_lock o l) with Some b => Nat.eqb cur b | None => false end = false).
    { destruct (l_owner (get_lock o l)) as [b|]; auto. apply Nat.eqb_neq. intros ->. auto. }
    destruct exc as [[]|]; auto. congruence.
Qed.

Definition with_ob (m : mstate) (o' : objs) (ops : list kop) : mstate :=
  m <| ob := o' |> <| klog := klog m ++ ops |>.

Lemma after_prim_with_ob m o' ops : after_prim m o' ops = with_ob m (app_ops (ob m) (o', ops)) ops.
Proof. reflexivity. Qed.

Lemma with_ob_with_ob m o1 ops1 o2 ops2 :
  with_ob (with_ob m o1 ops1) o2 ops2 = with_ob m o2 (ops1 ++ ops2).
Proof. unfold with_ob. cbn. rewrite app_assoc. reflexivity. Qed.

Lemma pair_okk (P : objs * list kop) : (let '(o', ks) := P in okk o' ks) = okk (fst P) (snd P).
Proof. destruct P; reflexivity. Qed.

Definition exit_ops (o : objs) (l : nat) : list kop :=
  if (l_depth (get_lock o l) - 1 =? 0)%Z then snd (lock_release (drop_depth o l) l) else [].

Theorem lock_exit_runs k cur m l exc c outer :
  exec (2 + k) cur m (MRun (lock_exit l exc)) c outer
  = if exit_guard (ob m) l exc cur
    then exec k cur (with_ob m (sec_exit (ob m) l) (exit_ops (ob m) l)) (MRet VU) c outer
    else exec (1 + k) cur m (MThrow EAssertion) c outer.
Proof.
  unfold lock_exit. destruct (exit_guard (ob m) l exc cur) eqn:G; unfold exit_guard in G.
  - unfold sec_exit, exit_ops. cbv zeta. fold (drop_depth (ob m) l).
    destruct (l_depth (get_lock (ob m) l) - 1 =? 0)%Z eqn:Z.
    + erewrite exec_do by (rewrite G, Z; apply pair_okk). reflexivity.
    + erewrite exec_do by (rewrite G, Z; reflexivity). reflexivity.
  - cbn [Nat.add]. unfold Do. erewrite exec_step; [reflexivity|].
    apply step1_prim_err. rewrite G. reflexivity.
Qed.

Theorem lock_enter_free_runs k cur m l c outer :
  l_owner (get_lock (ob m) l) = None ->
  exec (7 + k) cur m (MRun (lock_enter l)) c outer
  = exec k cur (with_ob m (sec_enter (ob m) l cur) []) (MRet VU) c outer.
Proof.
  intros H. destruct c as [b st]. change (7 + k) with (S (S (2 + S (2 + k)))).
  unfold lock_enter, sec_enter. rewrite H.
  erewrite exec_step by (cbn; rewrite H; reflexivity). xstep.
  unfold Upd. erewrite exec_do by reflexivity. xstep. erewrite exec_do by reflexivity.
  rewrite !after_prim_with_ob, with_ob_with_ob. reflexivity.
Qed.

Theorem lock_enter_again_runs k cur m l c outer :
  l_owner (get_lock (ob m) l) = Some cur ->
  exec (6 + k) cur m (MRun (lock_enter l)) c outer
  = exec k cur (with_ob m (sec_enter (ob m) l cur) []) (MRet VU) c outer.
Proof.
  intros H. destruct c as [b st]. change (6 + k) with (S (S (S (S (2 + k))))).
  unfold lock_enter, sec_enter. rewrite H, Nat.eqb_refl.
  erewrite exec_step by (cbn; rewrite H, Nat.eqb_refl; reflexivity). do 3 xstep.
  unfold Upd. erewrite exec_do by reflexivity. reflexivity.
Qed.

(** ** [Lock.__aenter__] on a lock held by somebody else: allocates the wake-up [w], subscribes, and
    hibernates; what is left on the stack of the sleeping activity are the handlers of
    [__subscription__] and of [__aenter__], which carry [w] *)
Definition lock_wait_frames (l : nat) (n : nid) (a : aid) (w : sid) : list frame :=
  [ FCatch (fun e => if is_sig e w then Ret VU else Raise e);
    FCatch (fun e => unsubscribe n a w ;;; Raise e);
    FBind (fun v => unsubscribe n a w ;;; Ret v);
    FCatch (fun e => Do (fun o _ => if owner_is o l a
                                    then let '(o', ks) := lock_release o l in okk o' ks
                                    else oku o) ;;; Raise e);
    FBind (fun _ => Upd (fun o => let x := get_lock o l in
                                  set_lock o l (x <| l_depth := (l_depth x + 1)%Z |>))) ].

Theorem lock_enter_wait_sleeps k a m l b st :
  l_owner (get_lock (ob m) l) = Some b -> a <> b ->
  nk (get_notif (ob m) (lnotif (ob m) l)) = NPlain ->
  exec (17 + k) a m (MRun (lock_enter l)) {| c_aid := a; c_stack := st |} []
  = set_act (with_ob m (sec_enter (ob m) l a) [])
            a (ASusp (lock_wait_frames l (lnotif (ob m) l) a (length (sigs (ob m))) ++ st)).
Proof.
  intros H N P. apply Nat.eqb_neq in N. unfold lock_enter, sec_enter. rewrite H, N. unfold lnotif in *.
  change (17 + k) with (S (S (S (S (4 + S (S (2 + S (4 + k)))))))).
  erewrite exec_step by (cbn; rewrite H, N; reflexivity). do 2 xstep.
  erewrite exec_step by (cbn; rewrite P; reflexivity).
  unfold notif_await, subscription. rewrite new_sig_runs. cbv zeta. cbn [vnat]. do 2 xstep.
  unfold subscribe. erewrite exec_do.
  2:{ unfold subscribe_pres. replace (nk _) with NPlain by (symmetry; exact P). reflexivity. }
  xstep. rewrite guarded_hib_sleeps. rewrite after_prim_with_ob. reflexivity.
Qed.

Lemma unsubscribe_plain_pres o n a w :
  nk (get_notif o n) = NPlain ->
  (let '(o', ks) := unsubscribe_pair o n a w in okk o' ks)
  = okk (fst (plain_unsubscribe o n a w)) (snd (plain_unsubscribe o n a w)).
Proof. intros P. unfold unsubscribe_pair. rewrite P. apply pair_okk. Qed.

Theorem lock_wait_woken k cur m l n a w c st outer :
  lnotif (ob m) l = n -> nk (get_notif (ob m) n) = NPlain ->
  exec (13 + k) cur m (MThrow (ESig w)) {| c_aid := c; c_stack := lock_wait_frames l n a w ++ st |} outer
  = exec k cur (with_ob m (sec_wake (ob m) l a w) (snd (plain_unsubscribe (ob m) n a w)))
         (MRet VU) {| c_aid := c; c_stack := st |} outer.
Proof.
  intros En P. change (13 + k) with (9 + S (S (2 + k))).
  change (lock_wait_frames l n a w ++ st)
    with (guard_frames w (unsubscribe n a w) ++ skipn 3 (lock_wait_frames l n a w) ++ st).
  unfold unsubscribe. erewrite guard_own by (apply unsubscribe_plain_pres; exact P).
  cbn [skipn lock_wait_frames app]. do 2 xstep. unfold Upd. erewrite exec_do by reflexivity.
  rewrite !after_prim_with_ob, with_ob_with_ob, app_nil_r. unfold sec_wake. rewrite En.
  destruct (plain_unsubscribe (ob m) n a w); reflexivity.
Qed.

(** ** anything else thrown into the sleeping waiter: a foreign interrupt, CancelTask, the GeneratorExit of a close *)
Definition foreign_ops (o : objs) (l : nat) (n : nid) (a : aid) (w : sid) : list kop :=
  let o1 := app_ops o (plain_unsubscribe o n a w) in
  snd (plain_unsubscribe o n a w) ++ (if owner_is o1 l a then snd (lock_release o1 l) else []).

Theorem lock_wait_foreign k cur m l n a w e c st outer :
  lnotif (ob m) l = n -> nk (get_notif (ob m) n) = NPlain -> is_sig e w = false ->
  exec (16 + k) cur m (MThrow e) {| c_aid := c; c_stack := lock_wait_frames l n a w ++ st |} outer
  = exec k cur (with_ob m (sec_foreign (ob m) l a w) (foreign_ops (ob m) l n a w))
         (MThrow e) {| c_aid := c; c_stack := st |} outer.
Proof.
  intros En P He. change (16 + k) with (9 + S (S (2 + S (S (S k))))).
  change (lock_wait_frames l n a w ++ st)
    with (guard_frames w (unsubscribe n a w) ++ skipn 3 (lock_wait_frames l n a w) ++ st).
  unfold unsubscribe. erewrite guard_foreign by (exact He || (apply unsubscribe_plain_pres; exact P)).
  cbn [skipn lock_wait_frames app]. do 2 xstep.
  unfold sec_foreign, foreign_ops. rewrite En. cbv zeta.
  destruct (plain_unsubscribe (ob m) n a w) as [o1' ks1] eqn:U. cbn [fst snd].
  set (o1 := app_ops (ob m) (o1', ks1)).
  destruct (owner_is o1 l a) eqn:Ow.
  - destruct (lock_release o1 l) as [o2 ks2] eqn:R.
    erewrite exec_do by (cbv beta; change (ob (after_prim m o1' ks1)) with o1; rewrite Ow, R; reflexivity).
    do 3 xstep. rewrite !after_prim_with_ob, with_ob_with_ob. reflexivity.
  - erewrite exec_do by (cbv beta; change (ob (after_prim m o1' ks1)) with o1; rewrite Ow; reflexivity).
    do 3 xstep. rewrite !after_prim_with_ob, with_ob_with_ob. unfold app_ops at 1. cbn [fst snd kapply_all fold_left].
    rewrite set_kern_same. reflexivity.
Qed.

(** [alloc_lock]: scenario set-up and every [Queue()] *)
Lemma link_alloc_lock o wk : link (alloc_lock o) (length (locks o)) wk LP.init.
Proof.
  unfold link, alloc_lock, alloc_notif. cbn.
  assert (G : get_lock (o <| notifs := notifs o ++ [{| nk := NPlain; Machine.waiting := []; trig := false |}] |>
                          <| locks := locks o ++ [{| l_owner := None; l_depth := 0; l_notif := length (notifs o) |}] |>)
                       (length (locks o))
              = {| l_owner := None; l_depth := 0; l_notif := length (notifs o) |}).
  { unfold get_lock. cbn. rewrite app_nth2 by lia. rewrite Nat.sub_diag. reflexivity. }
  constructor; unfold lnotif; rewrite ?G; cbn; try (intros ? []); try constructor.
  - rewrite app_length. cbn. lia.
  - rewrite app_length. cbn. lia.
  - unfold get_notif. cbn. rewrite app_nth2 by lia. rewrite Nat.sub_diag. reflexivity.
  - unfold get_notif. cbn. rewrite app_nth2 by lia. rewrite Nat.sub_diag. reflexivity.
Qed.

(** The object states a lock goes through: created, then changed by one of the atomic sections [sec_enter] .. [sec_exit]
    under the discipline of the protocol (the ghost phase [LP.ph] records at which suspension point of the lock code
    an activity is), or by other code within the frame condition of [link_frame].  The protocol state is carried
    along. *)
Inductive linked (l : nat) : objs -> (aid -> sid) -> LP.st -> Prop :=
| lk_init o wk : link o l wk LP.init -> linked l o wk LP.init
| lk_request o wk s a s' :
    linked l o wk s -> LP.ph s a <> LP.Waiting -> is_scheduled o (length (sigs o)) = false ->
    LP.step s (LP.Request a) = Some s' -> linked l (sec_enter o l a) (wk_enter o l a wk) s'
| lk_wake o wk s a s' :
    linked l o wk s -> LP.ph s a = LP.Waiting -> In a (LP.woken s) ->
    LP.step s (LP.DeliverWake a) = Some s' -> linked l (sec_wake o l a (wk a)) wk s'
| lk_foreign o wk s a s' :
    linked l o wk s -> LP.ph s a = LP.Waiting ->
    LP.step s (LP.DeliverForeign a) = Some s' -> linked l (sec_foreign o l a (wk a)) wk s'
| lk_exit o wk s a n s' :
    linked l o wk s -> LP.ph s a = LP.Inside (S n) ->
    LP.step s (LP.Exit a) = Some s' -> linked l (sec_exit o l) wk s'
| lk_other o wk s o' :
    linked l o wk s ->
    length (locks o') = length (locks o) -> length (notifs o) <= length (notifs o') ->
    length (sigs o) <= length (sigs o') ->
    get_lock o' l = get_lock o l ->
    get_notif o' (lnotif o l) = get_notif o (lnotif o l) ->
    (forall a, In a (LP.woken s ++ LP.waiting s) -> is_scheduled o' (wk a) = is_scheduled o (wk a)) ->
    linked l o' wk s.

(** The protocol step in [lk_request] .. [lk_exit] is not an extra assumption: by [sim_request] .. [sim_exit] it exists
    and is the one given; see [linked_progress]. *)
Theorem linked_sound l o wk s : linked l o wk s -> link o l wk s /\ LP.reachable s.
Proof.
  induction 1 as [o wk K | o wk s a s' _ [K R] P F St | o wk s a s' _ [K R] P W St
                 | o wk s a s' _ [K R] P St | o wk s a n s' _ [K R] P St
                 | o wk s o' _ [K R] H1 H2 H3 H4 H5 H6].
  - split; [exact K | constructor].
  - split; [| econstructor; eauto].
    destruct (sim_request o l wk s a K (LPP.reachable_inv _ R) P F) as (s2 & E & K2). congruence.
  - split; [| econstructor; eauto].
    destruct (sim_wake o l wk s a K (LPP.reachable_inv _ R) P W) as (s2 & E & K2). congruence.
  - split; [| econstructor; eauto].
    destruct (sim_foreign o l wk s a K (LPP.reachable_inv _ R) P) as (s2 & E & K2). congruence.
  - split; [| econstructor; eauto].
    destruct (sim_exit o l wk s a n K (LPP.reachable_inv _ R) P) as (s2 & E & K2). congruence.
  - split; [| exact R]. apply (link_frame o); auto.
Qed.

(** the enabled-conditions of the sections are exactly the guards of [LP.step] on reachable states *)
Theorem linked_progress l o wk s a :
  linked l o wk s ->
  (LP.ph s a <> LP.Waiting -> LP.step s (LP.Request a) <> None) /\
  (LP.ph s a = LP.Waiting -> In a (LP.woken s) -> LP.step s (LP.DeliverWake a) <> None) /\
  (LP.ph s a = LP.Waiting -> LP.step s (LP.DeliverForeign a) <> None) /\
  (forall n, LP.ph s a = LP.Inside (S n) -> LP.step s (LP.Exit a) <> None).
Proof.
  intros L. destruct (linked_sound _ _ _ _ L) as [K R]. pose proof (LPP.enabled_by_phase s a R) as E.
  repeat split.
  - intros P. destruct (LP.ph s a); [exact E|congruence|apply E].
  - intros P W. cbn. rewrite P, (proj2 (LPP.mem_In _ _) W). discriminate.
  - intros P. rewrite P in E. exact E.
  - intros n P. rewrite P in E. apply E.
Qed.

Lemma NoDup_app_r {A} (l1 l2 : list A) : NoDup (l1 ++ l2) -> NoDup l2.
Proof. induction l1 as [|x r IH]; cbn; auto. intros H. apply NoDup_cons_iff in H as [_ H]. auto. Qed.

(** ** the C09 statements on machine object states *)
Section Transfer.
  Variables (o : objs) (l : nat) (wk : aid -> sid) (s : LP.st).
  Hypothesis K : link o l wk s.
  Hypothesis R : LP.reachable s.

  (** idle: neither holding the lock, designated for it nor waiting for it *)
  Theorem machine_free_iff_idle :
    l_owner (get_lock o l) = None <-> forall a, LP.ph s a = LP.Idle.
  Proof. rewrite (k_owner _ _ _ _ _ _ _ K). apply LPP.free_iff_idle. exact R. Qed.

  (** [Lock.available] as the machine computes it is the protocol's, hence its specification *)
  Lemma machine_available_eq a : lock_available o l a = LP.available s a.
  Proof.
    unfold lock_available, LP.available. rewrite (k_owner _ _ _ _ _ _ _ K).
    destruct (LP.owner s); auto. apply Nat.eqb_sym.
  Qed.

  Theorem machine_available_spec a : LP.ph s a <> LP.Waiting ->
    (lock_available o l a = true <-> (forall b, LP.ph s b = LP.Idle) \/ LPP.inside s a).
  Proof. rewrite machine_available_eq. apply LPP.available_spec. exact R. Qed.

  (** mutex + re-entrancy: whoever is inside is the recorded owner, alone, and the recorded depth is its
      nesting depth *)
  Theorem machine_mutex a b n m :
    LP.ph s a = LP.Inside n -> LP.ph s b = LP.Inside m ->
    a = b /\ l_owner (get_lock o l) = Some a /\ l_depth (get_lock o l) = Z.of_nat n /\ 1 <= n.
  Proof.
    intros Ha Hb. destruct (LPP.mutex s R a b n m Ha Hb) as [E O].
    destruct (LPP.reentrant_depth s R a n Ha) as (_ & D & L).
    rewrite (k_owner _ _ _ _ _ _ _ K), (k_depth _ _ _ _ _ _ _ K), D. auto.
  Qed.

  (** the waiting list of the lock's notification holds exactly the parked, not designated activities,
      each once, each with its own wake-up, none of them scheduled *)
  Theorem machine_waiting_list :
    NoDup (map fst (Machine.waiting (get_notif o (lnotif o l)))) /\
    NoDup (map snd (Machine.waiting (get_notif o (lnotif o l)))) /\
    forall a w, In (a, w) (Machine.waiting (get_notif o (lnotif o l))) ->
                LP.ph s a = LP.Waiting /\ w = wk a /\ is_scheduled o w = false /\
                l_owner (get_lock o l) <> Some a /\ l_owner (get_lock o l) <> None.
  Proof.
    pose proof (LPP.reachable_inv _ R) as I. pose proof (LPP.iB _ I) as B. unfold LP.pendq in B.
    rewrite (k_waiting _ _ _ _ _ _ _ K), map_fst_pairs. split; [|split].
    - apply NoDup_app_r in B. exact B.
    - rewrite map_map. cbn. apply (k_inj _ _ _ _ _ _ _ K).
    - intros a w H. apply in_map_iff in H as (b & E & Hb). injection E as <- <-.
      assert (P : LP.ph s b = LP.Waiting) by (apply (LPP.iA _ I); apply in_or_app; auto).
      pose proof (LPP.iC _ I) as C. unfold LPP.inv_owner in C. rewrite (k_owner _ _ _ _ _ _ _ K).
      repeat split; auto.
      + apply (k_queued _ _ _ _ _ _ _ K). exact Hb.
      + intros O. rewrite O in C. destruct C as [_ C].
        rewrite P in C. destruct C as [W _]. rewrite W in B. cbn in B. apply NoDup_cons_iff in B as [B _].
        contradiction.
      + intros O. rewrite O in C. destruct C as (_ & C & _). rewrite C in Hb. destruct Hb.
  Qed.

  (** ownership is never parked: a recorded owner is inside the block, or it is the designated waiter and
      its wake-up is scheduled in the kernel (and not in the waiting list any more) *)
  Theorem machine_owner_can_move a :
    l_owner (get_lock o l) = Some a ->
    (exists n, LP.ph s a = LP.Inside (S n) /\ l_depth (get_lock o l) = Z.of_nat (S n)) \/
    (LP.ph s a = LP.Waiting /\ is_scheduled o (wk a) = true /\ l_depth (get_lock o l) = 0%Z /\
     ~ In a (map fst (Machine.waiting (get_notif o (lnotif o l))))).
  Proof.
    rewrite (k_owner _ _ _ _ _ _ _ K). intros O.
    destruct (LPP.owner_can_move s a R O) as [(n & P & _) | (P & W & _)].
    - left. exists n. split; auto. rewrite (k_depth _ _ _ _ _ _ _ K).
      destruct (LPP.reentrant_depth s R a _ P) as (_ & D & _). now rewrite D.
    - right. pose proof (LPP.reachable_inv _ R) as I.
      destruct (LPP.woken_shape s I a W) as (_ & _ & _ & Z).
      repeat split; auto.
      + apply (k_woken _ _ _ _ _ _ _ K). exact W.
      + rewrite (k_depth _ _ _ _ _ _ _ K), Z. reflexivity.
      + rewrite (k_waiting _ _ _ _ _ _ _ K), map_fst_pairs.
        destruct (LPP.unsubscribe_safe s a R P) as [[_ N]|[_ N]]; [exact N | contradiction].
  Qed.

  (** [Notification.__unsubscribe__] of a parked activity always finds what it looks for: its wake-up is
      scheduled (then it is revoked), or its pair is in the waiting list (then [list.remove] succeeds) *)
  Theorem machine_unsubscribe_safe a : LP.ph s a = LP.Waiting ->
    (is_scheduled o (wk a) = true /\ mem_pair a (wk a) (Machine.waiting (get_notif o (lnotif o l))) = false) \/
    (is_scheduled o (wk a) = false /\ mem_pair a (wk a) (Machine.waiting (get_notif o (lnotif o l))) = true).
  Proof.
    intros P. rewrite (k_waiting _ _ _ _ _ _ _ K).
    assert (M : forall L, mem_pair a (wk a) (map (fun b : aid => (b, wk b)) L) = LP.mem a L).
    { unfold mem_pair, LP.mem. induction L as [|b r IH]; cbn; auto. rewrite IH. f_equal.
      destruct (Nat.eqb_spec a b) as [<-|N]; cbn; auto. apply Nat.eqb_refl. }
    rewrite M. destruct (LPP.unsubscribe_safe s a R P) as [[W N]|[W N]]; [left|right]; split.
    - apply (k_woken _ _ _ _ _ _ _ K). exact W.
    - apply LPP.mem_false. exact N.
    - apply (k_queued _ _ _ _ _ _ _ K). exact W.
    - apply LPP.mem_In. exact W.
  Qed.
End Transfer.

Corollary linked_free_iff_idle l o wk s :
  linked l o wk s -> (l_owner (get_lock o l) = None <-> forall a, LP.ph s a = LP.Idle).
Proof. intros L. destruct (linked_sound _ _ _ _ L) as [K R]. eapply machine_free_iff_idle; eauto. Qed.

Corollary linked_available_spec l o wk s a :
  linked l o wk s -> LP.ph s a <> LP.Waiting ->
  (lock_available o l a = true <-> (forall b, LP.ph s b = LP.Idle) \/ LPP.inside s a).
Proof. intros L. destruct (linked_sound _ _ _ _ L) as [K R]. eapply machine_available_spec; eauto. Qed.

Corollary linked_mutex l o wk s a b n m :
  linked l o wk s -> LP.ph s a = LP.Inside n -> LP.ph s b = LP.Inside m ->
  a = b /\ l_owner (get_lock o l) = Some a /\ l_depth (get_lock o l) = Z.of_nat n /\ 1 <= n.
Proof. intros L. destruct (linked_sound _ _ _ _ L) as [K R]. eapply machine_mutex; eauto. Qed.

(** ** simulation and symbolic execution composed: one statement per atomic section about the MACHINE.
    Running the lock code of Lib.v from a machine state whose object state is related to a protocol state
    [s] (with [LPP.inv s], e.g. [s] reachable) performs a protocol transition: the object state at the end
    of the section is related to [LP.step s label]. *)
Theorem machine_request_immediate k cur m l c outer wk s :
  link (ob m) l wk s -> LPP.inv s -> LP.ph s cur <> LP.Waiting ->
  (l_owner (get_lock (ob m) l) = None \/ l_owner (get_lock (ob m) l) = Some cur) ->
  exists s' m' j, LP.step s (LP.Request cur) = Some s' /\ link (ob m') l wk s' /\
    exec (j + k) cur m (MRun (lock_enter l)) c outer = exec k cur m' (MRet VU) c outer.
Proof.
  intros K I P O.
  destruct (sim_request_immediate _ _ _ _ cur K I P O) as (s' & St & K').
  exists s', (with_ob m (sec_enter (ob m) l cur) []).
  destruct O as [O|O].
  - exists 7. split; [exact St | split; [exact K' | apply lock_enter_free_runs; exact O]].
  - exists 6. split; [exact St | split; [exact K' | apply lock_enter_again_runs; exact O]].
Qed.

Theorem machine_request_waits k a m l b st wk s :
  link (ob m) l wk s -> LPP.inv s -> LP.ph s a <> LP.Waiting ->
  is_scheduled (ob m) (length (sigs (ob m))) = false ->
  l_owner (get_lock (ob m) l) = Some b -> a <> b ->
  let w := length (sigs (ob m)) in
  let m' := exec (17 + k) a m (MRun (lock_enter l)) {| c_aid := a; c_stack := st |} [] in
  exists s', LP.step s (LP.Request a) = Some s' /\ LP.ph s' a = LP.Waiting /\
             link (ob m') l (LP.upd wk a w) s' /\
             m' = set_act (with_ob m (sec_enter (ob m) l a) []) a
                          (ASusp (lock_wait_frames l (lnotif (ob m) l) a (LP.upd wk a w a) ++ st)).
Proof.
  intros K I P Fr O N w m'.
  destruct (sim_request _ _ _ _ a K I P Fr) as (s' & St & K').
  assert (Ew : wk_enter (ob m) l a wk = LP.upd wk a w).
  { unfold wk_enter. rewrite O. apply Nat.eqb_neq in N. now rewrite N. }
  rewrite Ew in K'.
  assert (Em : m' = set_act (with_ob m (sec_enter (ob m) l a) []) a
                            (ASusp (lock_wait_frames l (lnotif (ob m) l) a w ++ st))).
  { apply lock_enter_wait_sleeps with (b := b); auto. apply K. }
  exists s'. split; [exact St | split; [| split]].
  - cbn [LP.step] in St.
    unfold link in K. rewrite <- (k_owner _ _ _ _ _ _ _ K), O in St.
    destruct (LP.ph s a) eqn:Pa; try discriminate.
    + rewrite (proj2 (Nat.eqb_neq b a)) in St by auto. injection St as <-. cbn. apply LPP.upd_same.
    + rewrite (proj2 (Nat.eqb_neq b a)) in St by auto. discriminate.
  - rewrite Em. apply (link_frame (sec_enter (ob m) l a)); auto.
  - rewrite LPP.upd_same. exact Em.
Qed.

Theorem machine_wake k cur m l a c st outer wk s :
  link (ob m) l wk s -> LPP.inv s -> LP.ph s a = LP.Waiting -> In a (LP.woken s) ->
  exists s' m', LP.step s (LP.DeliverWake a) = Some s' /\ link (ob m') l wk s' /\
    exec (13 + k) cur m (MThrow (ESig (wk a)))
         {| c_aid := c; c_stack := lock_wait_frames l (lnotif (ob m) l) a (wk a) ++ st |} outer
    = exec k cur m' (MRet VU) {| c_aid := c; c_stack := st |} outer.
Proof.
  intros K I P W. destruct (sim_wake _ _ _ _ a K I P W) as (s' & St & K').
  exists s'. eexists. split; [exact St|]. split; [| apply lock_wait_woken; [reflexivity | apply K]].
  exact K'.
Qed.

Theorem machine_foreign k cur m l a e c st outer wk s :
  link (ob m) l wk s -> LPP.inv s -> LP.ph s a = LP.Waiting -> is_sig e (wk a) = false ->
  exists s' m', LP.step s (LP.DeliverForeign a) = Some s' /\ link (ob m') l wk s' /\
    exec (16 + k) cur m (MThrow e)
         {| c_aid := c; c_stack := lock_wait_frames l (lnotif (ob m) l) a (wk a) ++ st |} outer
    = exec k cur m' (MThrow e) {| c_aid := c; c_stack := st |} outer.
Proof.
  intros K I P He. destruct (sim_foreign _ _ _ _ a K I P) as (s' & St & K').
  exists s'. eexists. split; [exact St|]. split; [| apply lock_wait_foreign; [reflexivity | apply K | exact He]].
  exact K'.
Qed.

(** [__aexit__] run by the holder [a] while the loop runs [cur]: if the assertion holds (always when [cur = a], and
    for [GeneratorExit]) the protocol exits; otherwise (D14) neither the objects nor the protocol state move *)
Theorem machine_exit k cur m l exc c outer wk s a n :
  link (ob m) l wk s -> LPP.inv s -> LP.ph s a = LP.Inside (S n) ->
  (exit_guard (ob m) l exc cur = true ->
   exists s' m', LP.step s (LP.Exit a) = Some s' /\ link (ob m') l wk s' /\
     exec (2 + k) cur m (MRun (lock_exit l exc)) c outer = exec k cur m' (MRet VU) c outer) /\
  (exit_guard (ob m) l exc cur = false ->
   cur <> a /\ exc <> Some EGenExit /\
   exec (2 + k) cur m (MRun (lock_exit l exc)) c outer = exec (1 + k) cur m (MThrow EAssertion) c outer) /\
  (cur = a -> exit_guard (ob m) l exc cur = true).
Proof.
  intros K I P. destruct (LPP.inside_owner _ I _ _ P) as (O & _).
  split; [|split].
  - intros G. destruct (sim_exit _ _ _ _ a n K I P) as (s' & St & K').
    exists s'. eexists. split; [exact St|]. split; [| rewrite lock_exit_runs, G; reflexivity]. exact K'.
  - intros G. pose proof G as G'. apply exit_guard_fails_iff in G' as [G1 G2].
    repeat split; auto.
    + intros ->. apply G2. unfold link in K. rewrite (k_owner _ _ _ _ _ _ _ K). exact O.
    + rewrite lock_exit_runs, G. reflexivity.
  - intros ->. eapply exit_guard_owner; eauto.
Qed.

(** ** the hypotheses are satisfiable: a concrete history on a freshly allocated lock.
    activity 0 enters, activity 1 requests (parks with wake-up 0), 0 leaves (hand-off: 1 designated, its
    wake-up scheduled), 1 is resumed by its wake-up and is inside. *)
Definition ex_base : objs :=
  {| kern := loop_init 2 (Fin 0); sigs := []; astat := [AsNew; AsNew]; notifs := []; flags := [];
     tracked := []; tasks := []; scopes := []; locks := []; queues := []; chans := []; ress := [];
     tnames := []; snames := []; trace := []; serial := 0; closing := 0 |}.
Definition ex_o0 : objs := alloc_lock ex_base.
Definition ex_wk0 : aid -> sid := fun _ => 7.
Definition ex_o1 := sec_enter ex_o0 0 0.
Definition ex_o2 := sec_enter ex_o1 0 1.
Definition ex_o3 := sec_exit ex_o2 0.
Definition ex_o4 := sec_wake ex_o3 0 1 0.

Example ex_history :
  exists s, linked 0 ex_o4 (LP.upd ex_wk0 1 0) s /\
            LP.project s = (2, 1, [], []) /\
            proj_lock ex_o4 0 (LP.upd ex_wk0 1 0) [0; 1] = (2, 1, [], [1]) /\
            proj_lock ex_o3 0 (LP.upd ex_wk0 1 0) [0; 1] = (2, 0, [], [1]) /\
            proj_lock ex_o2 0 (LP.upd ex_wk0 1 0) [0; 1] = (1, 1, [1], []).
Proof.
  eexists. split; [| split; [| repeat split; vm_compute; reflexivity ]].
  - unfold ex_o4.
    change 0 with ((LP.upd ex_wk0 1 0) 1) at 4.
    eapply lk_wake with (a := 1).
    + unfold ex_o3. eapply lk_exit with (a := 0) (n := 0).
      * unfold ex_o2. change (LP.upd ex_wk0 1 0) with (wk_enter ex_o1 0 1 ex_wk0).
        eapply lk_request.
        -- unfold ex_o1. change ex_wk0 with (wk_enter ex_o0 0 0 ex_wk0) at 1.
           eapply lk_request.
           ++ apply lk_init. exact (link_alloc_lock ex_base ex_wk0).
           ++ cbn. discriminate.
           ++ reflexivity.
           ++ lazy. reflexivity.
        -- cbn. discriminate.
        -- reflexivity.
        -- lazy. reflexivity.
      * reflexivity.
      * lazy. reflexivity.
    + reflexivity.
    + cbn. auto.
    + lazy. reflexivity.
  - reflexivity.
Qed.

Print Assumptions sim_request.
Print Assumptions sim_wake.
Print Assumptions sim_foreign.
Print Assumptions sim_exit.
Print Assumptions link_release.
Print Assumptions link_unsubscribe.
Print Assumptions lock_exit_runs.
Print Assumptions lock_enter_free_runs.
Print Assumptions lock_enter_again_runs.
Print Assumptions lock_enter_wait_sleeps.
Print Assumptions lock_wait_woken.
Print Assumptions lock_wait_foreign.
Print Assumptions machine_request_immediate.
Print Assumptions machine_request_waits.
Print Assumptions machine_wake.
Print Assumptions machine_foreign.
Print Assumptions machine_exit.
Print Assumptions linked_sound.
Print Assumptions linked_progress.
Print Assumptions machine_free_iff_idle.
Print Assumptions machine_available_spec.
Print Assumptions machine_mutex.
Print Assumptions machine_waiting_list.
Print Assumptions machine_owner_can_move.
Print Assumptions machine_unsubscribe_safe.
Print Assumptions ex_history.

