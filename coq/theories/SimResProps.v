(* C19: proofs about the resource machines of SimRes.v.  The statements quantify over arbitrary operation histories
   (lists of op), or are about one step from an arbitrary state. *)
From Coq Require Import ZArith List Bool Lia Sorted Permutation.
From Usim Require Import ListFacts SimRes.
Import ListNotations.
Local Open Scope Z_scope.

Set Implicit Arguments.

Lemma append_in : forall A (r : A) q x, In x (q ++ [r]) -> x = r \/ In x q.
Proof. intros A r q x H. apply in_app_or in H as [H|[<-|[]]]; auto. Qed.

(* q is an order-preserving interleaving of a and b: what a pass over a queue does to it, a the requests
   taken out and b the ones left *)
Inductive interleave {A} : list A -> list A -> list A -> Prop :=
| il_nil : interleave [] [] []
| il_left x q a b : interleave q a b -> interleave (x :: q) (x :: a) b
| il_right x q a b : interleave q a b -> interleave (x :: q) a (x :: b).

Lemma interleave_app : forall A (a b : list A), interleave (a ++ b) a b.
Proof. intros A a b. induction a; cbn; [induction b|]; constructor; auto. Qed.

Lemma interleave_nil_l : forall A (q b : list A), interleave q [] b -> b = q.
Proof. intros A q b H. remember [] as a. induction H; [reflexivity|discriminate|f_equal; auto]. Qed.

Lemma interleave_Forall : forall A (Q : A -> Prop) q a b,
    interleave q a b -> Forall Q q -> Forall Q a /\ Forall Q b.
Proof.
  induction 1 as [|x q a b _ IH|x q a b _ IH]; intros F; [auto|..];
    apply Forall_cons_iff in F as [Hx F]; destruct (IH F); auto.
Qed.

Lemma interleave_sorted : forall A (R : A -> A -> Prop) q a b,
    interleave q a b -> StronglySorted R q -> StronglySorted R a /\ StronglySorted R b.
Proof.
  induction 1 as [|x q a b I IH|x q a b I IH]; intros S; [auto|..];
    apply StronglySorted_inv in S as [S F]; destruct (IH S); destruct (interleave_Forall I F);
    split; auto; constructor; auto.
Qed.

Lemma below_mono : forall R (q : list (nat * R)) n m,
    (n <= m)%nat -> Forall (fun x => (fst x < n)%nat) q -> Forall (fun x => (fst x < m)%nat) q.
Proof. intros R q n m Hnm. apply Forall_impl. intros x Hx. exact (Nat.lt_le_trans _ _ _ Hx Hnm). Qed.

Section Generic.
  Variables C P G N : Type.
  Variable M : mach C P G N.

  Notation state := (state C P G).
  Notation ev := (ev P G N).
  Notation op := (op P G).

  Definition eput (g : nat * P * N) : ev := EPut (gid g) (snd (fst g)) (snd g).
  Definition eget (g : nat * G * N) : ev := EGet (gid g) (snd (fst g)) (snd g).

  (* c --grants gs--> c' *)
  Fixpoint chain {R} (f : C -> nat * R -> option (C * N)) (c : C) (gs : list (nat * R * N)) (c' : C) : Prop :=
    match gs with
    | [] => c' = c
    | g :: gs' => exists c1, f c (fst g) = Some (c1, snd g) /\ chain f c1 gs' c'
    end.

  Definition keeps_refusals {R} (f : C -> nat * R -> option (C * N)) : Prop :=
    forall c r c1 n r', f c r = Some (c1, n) -> f c r' = None -> f c1 r' = None.

  Lemma chain_none : forall R (f : C -> nat * R -> option (C * N)), keeps_refusals f ->
      forall gs c c' r', chain f c gs c' -> f c r' = None -> f c' r' = None.
  Proof.
    intros R f Hm. induction gs as [|g gs IH]; cbn; intros c c' r' H Hn.
    - subst; exact Hn.
    - destruct H as (c1 & H1 & H2). exact (IH _ _ _ H2 (Hm _ _ _ _ _ H1 Hn)).
  Qed.

  (* What one pass over a queue q yields, for both ways of serving it: the grants gs lead from content c to c';
     the requests granted and those left, rest, are q taken apart in order; takewhile leaves a suffix whose head
     was refused, a pass over the whole queue leaves requests that are all refused in the end. *)
  Definition served {R} (f : C -> nat * R -> option (C * N)) (all : bool) c q c' gs rest : Prop :=
    chain f c gs c' /\ interleave q (map fst gs) rest /\
    if all then keeps_refusals f -> Forall (fun r => f c' r = None) rest
    else q = map fst gs ++ rest /\ match rest with r :: _ => f c' r = None | [] => True end.

  Lemma serve_prefix_spec : forall R (f : C -> nat * R -> option (C * N)) q c c' gs rest,
      serve_prefix f c q = (c', gs, rest) -> served f false c q c' gs rest.
  Proof.
    unfold served. induction q as [|r q IH]; cbn; intros c c' gs rest H.
    - injection H as <- <- <-. cbn. repeat constructor.
    - destruct (f c r) as [[c1 n]|] eqn:E.
      + destruct (serve_prefix f c1 q) as [[c2 gs2] rest2] eqn:E2. injection H as <- <- <-.
        destruct (IH _ _ _ _ E2) as (Hc & Hi & Hq & Hr). cbn. split; [exists c1; auto|].
        split; [constructor; exact Hi|]. split; [f_equal; exact Hq|exact Hr].
      + injection H as <- <- <-. cbn. split; [reflexivity|]. split; [apply (interleave_app [])|auto].
  Qed.

  Lemma serve_all_spec : forall R (f : C -> nat * R -> option (C * N)) q c c' gs rest,
      serve_all f c q = (c', gs, rest) -> served f true c q c' gs rest.
  Proof.
    unfold served. induction q as [|r q IH]; cbn; intros c c' gs rest H.
    - injection H as <- <- <-. cbn. repeat constructor.
    - destruct (f c r) as [[c1 n]|] eqn:E.
      + destruct (serve_all f c1 q) as [[c2 gs2] rest2] eqn:E2. injection H as <- <- <-.
        destruct (IH _ _ _ _ E2) as (Hc & Hi & Hb). cbn. split; [exists c1; auto|].
        split; [constructor; exact Hi|exact Hb].
      + destruct (serve_all f c q) as [[c2 gs2] rest2] eqn:E2. injection H as <- <- <-.
        destruct (IH _ _ _ _ E2) as (Hc & Hi & Hb). split; [exact Hc|]. split; [constructor; exact Hi|].
        intros Hm. constructor; [exact (chain_none Hm _ _ _ _ Hc E)|exact (Hb Hm)].
  Qed.

  Lemma served_nil : forall R (f : C -> nat * R -> option (C * N)) all c q c' rest,
      served f all c q c' [] rest -> c' = c /\ rest = q.
  Proof. intros R f all c q c' rest (Hc & Hi & _). exact (conj Hc (interleave_nil_l Hi)). Qed.

  Lemma trigger_put_spec : forall s s' o, trigger_put M s = (s', o) -> exists c gs rest,
      served (do_put M (now s)) false (content s) (putq s) c gs rest /\
      s' = St (now s) c rest (getq s) (pend s ++ map (fun g => (gid g, true)) gs) /\ o = map eput gs.
  Proof.
    intros s s' o. unfold trigger_put.
    destruct (serve_prefix (do_put M (now s)) (content s) (putq s)) as [[c gs] rest] eqn:E.
    intros H. injection H as <- <-. exists c, gs, rest. split; [exact (serve_prefix_spec _ _ _ E)|auto].
  Qed.

  Lemma trigger_get_spec : forall s s' o, trigger_get M s = (s', o) -> exists c gs rest,
      served (do_get M (now s)) (get_all M) (content s) (getq s) c gs rest /\
      s' = St (now s) c (putq s) rest (pend s ++ map (fun g => (gid g, false)) gs) /\ o = map eget gs.
  Proof.
    intros s s' o. unfold trigger_get.
    destruct (if get_all M then _ else _) as [[c gs] rest] eqn:E.
    intros H. injection H as <- <-. exists c, gs, rest. split; [|auto].
    destruct (get_all M); [exact (serve_all_spec _ _ _ E)|exact (serve_prefix_spec _ _ _ E)].
  Qed.

  (* Refinement principle: a relation between content and the trace of grants that is kept by
     every single grant (of a request the constructor accepted) holds after every history. *)
  Definition qok (s : state) : Prop :=
    Forall (fun r => okp M (snd r) = true) (putq s) /\ Forall (fun r => okg M (snd r) = true) (getq s).

  Lemma R_served : forall Q (f : C -> nat * Q -> option (C * N)) (mk : nat -> Q -> N -> ev) (ok : Q -> bool)
      (R : C -> list ev -> Prop),
      (forall c tr id x c' n, ok x = true -> R c tr -> f c (id, x) = Some (c', n) -> R c' (tr ++ [mk id x n])) ->
      forall all c q c' gs rest tr,
        served f all c q c' gs rest -> Forall (fun r => ok (snd r) = true) q -> R c tr ->
        R c' (tr ++ map (fun g => mk (gid g) (snd (fst g)) (snd g)) gs) /\ Forall (fun r => ok (snd r) = true) rest.
  Proof.
    intros Q f mk ok R Hstep all c q c' gs rest tr (Hc & Hi & _) Hq HR.
    destruct (interleave_Forall Hi Hq) as [Hgs Hrest]. split; [|exact Hrest]. clear Hi Hq Hrest.
    revert c tr Hc HR. induction gs as [|[[id x] n] gs IH]; cbn; intros c tr Hc HR.
    - subst. rewrite app_nil_r. exact HR.
    - destruct Hc as (c1 & H1 & H2). apply Forall_cons_iff in Hgs as [Hx Hgs].
      change (tr ++ mk id x n :: ?l) with (tr ++ [mk id x n] ++ l). rewrite app_assoc.
      exact (IH Hgs _ _ H2 (Hstep _ _ _ _ _ _ Hx HR H1)).
  Qed.

  Lemma ins_Forall : forall (Q : nat * P -> Prop) r q,
      (forall r q x, In x (ins M r q) -> x = r \/ In x q) -> Q r -> Forall Q q -> Forall Q (ins M r q).
  Proof.
    intros Q r q ins_in Hr Hq. apply Forall_forall. intros x Hx.
    apply ins_in in Hx as [->|Hx]; [exact Hr|exact (proj1 (Forall_forall _ _) Hq x Hx)].
  Qed.

  Section Refine.
    Hypothesis ins_in : forall r q x, In x (ins M r q) -> x = r \/ In x q.
    Variable R : C -> list ev -> Prop.
    Hypothesis Rput : forall t c tr id p c' n, okp M p = true ->
        R c tr -> do_put M t c (id, p) = Some (c', n) -> R c' (tr ++ [EPut id p n]).
    Hypothesis Rget : forall t c tr id g c' n, okg M g = true ->
        R c tr -> do_get M t c (id, g) = Some (c', n) -> R c' (tr ++ [EGet id g n]).

    Lemma R_trigger_put : forall s tr s' o,
        qok s -> R (content s) tr -> trigger_put M s = (s', o) -> R (content s') (tr ++ o) /\ qok s'.
    Proof.
      intros s tr s' o [Hp Hg] HR H. destruct (trigger_put_spec _ H) as (c & gs & rest & Hsv & -> & ->).
      destruct (R_served (@EPut P G N) (okp M) R (@Rput (now s)) tr Hsv Hp HR) as [HR' Hp'].
      exact (conj HR' (conj Hp' Hg)).
    Qed.

    Lemma R_trigger_get : forall s tr s' o,
        qok s -> R (content s) tr -> trigger_get M s = (s', o) -> R (content s') (tr ++ o) /\ qok s'.
    Proof.
      intros s tr s' o [Hp Hg] HR H. destruct (trigger_get_spec _ H) as (c & gs & rest & Hsv & -> & ->).
      destruct (R_served (@EGet P G N) (okg M) R (@Rget (now s)) tr Hsv Hg HR) as [HR' Hg'].
      exact (conj HR' (conj Hp Hg')).
    Qed.

    Lemma R_step : forall s o tr s' outs,
        qok s -> R (content s) tr -> step M s o = (s', outs) -> R (content s') (tr ++ outs) /\ qok s'.
    Proof.
      intros s o tr s' outs Hq HR H.
      assert (Hid : R (content s) (tr ++ []) /\ qok s) by (rewrite app_nil_r; exact (conj HR Hq)).
      destruct Hq as [Hp Hg]. destruct o as [t|id p|id g|id|id]; cbn in H.
      - injection H as <- <-. exact Hid.
      - destruct (okp M p) eqn:Eo; [|injection H as <- <-; exact Hid].
        exact (R_trigger_put (s := St _ _ _ _ _) (conj (ins_Forall (id, p) ins_in Eo Hp) Hg) HR H).
      - destruct (okg M g) eqn:Eo; [|injection H as <- <-; exact Hid].
        refine (R_trigger_get (s := St _ _ _ _ _) (conj Hp _) HR H).
        apply Forall_app. split; [exact Hg|]. constructor; [exact Eo|constructor].
      - injection H as <- <-. split; [exact (proj1 Hid)|].
        exact (conj (incl_Forall (incl_filter _ _) Hp) (incl_Forall (incl_filter _ _) Hg)).
      - destruct (take_pend id (pend s)) as [[[|] l]|]; [..|injection H as <- <-; exact Hid].
        + exact (R_trigger_get (s := St (now s) (content s) (putq s) (getq s) l) (conj Hp Hg) HR H).
        + exact (R_trigger_put (s := St (now s) (content s) (putq s) (getq s) l) (conj Hp Hg) HR H).
    Qed.

    Theorem R_run_gen : forall h s tr s' outs,
        qok s -> R (content s) tr -> run M s h = (s', outs) -> R (content s') (tr ++ outs) /\ qok s'.
    Proof.
      induction h as [|o h IH]; cbn; intros s tr s' outs Hq HR H.
      - injection H as <- <-. rewrite app_nil_r. exact (conj HR Hq).
      - destruct (step M s o) as [s1 e1] eqn:E1. destruct (run M s1 h) as [s2 e2] eqn:E2.
        injection H as <- <-. rewrite app_assoc.
        destruct (R_step _ Hq HR E1) as [HR1 Hq1]. exact (IH _ _ _ _ Hq1 HR1 E2).
    Qed.

    Theorem R_run : forall c0 h s outs,
        R c0 [] -> run M (init c0) h = (s, outs) -> R (content s) outs.
    Proof.
      intros c0 h s outs HR H.
      exact (proj1 (R_run_gen h (s := init c0) (conj (Forall_nil _) (Forall_nil _)) HR H)).
    Qed.
  End Refine.

  (* content invariants, and: every grant in a trace was made by _do_put/_do_get in a content
     that satisfies the invariant *)
  Section Inv.
    Hypothesis ins_in : forall r q x, In x (ins M r q) -> x = r \/ In x q.
    Variable I : C -> Prop.
    Hypothesis Iput : forall t c r c' n, okp M (snd r) = true -> I c -> do_put M t c r = Some (c', n) -> I c'.
    Hypothesis Iget : forall t c r c' n, okg M (snd r) = true -> I c -> do_get M t c r = Some (c', n) -> I c'.

    Definition justified (e : ev) : Prop :=
      match e with
      | EPut id p n => exists t c c', I c /\ do_put M t c (id, p) = Some (c', n)
      | EGet id g n => exists t c c', I c /\ do_get M t c (id, g) = Some (c', n)
      end.

    Theorem inv_run : forall c0 h s outs,
        I c0 -> run M (init c0) h = (s, outs) -> I (content s) /\ Forall justified outs.
    Proof.
      intros c0 h s outs HI H.
      apply (@R_run ins_in (fun c tr => I c /\ Forall justified tr)) with (c0 := c0) (h := h); auto.
      - intros t c tr id p c' n Hok [Hc Hf] Hd. split; [exact (@Iput t c (id, p) c' n Hok Hc Hd)|].
        apply Forall_app. split; [exact Hf|]. constructor; [|constructor]. exists t, c, c'. auto.
      - intros t c tr id g c' n Hok [Hc Hf] Hd. split; [exact (@Iget t c (id, g) c' n Hok Hc Hd)|].
        apply Forall_app. split; [exact Hf|]. constructor; [|constructor]. exists t, c, c'. auto.
    Qed.
  End Inv.

  (* Queue discipline: with request ids issued in increasing order, both queues stay sorted by the policy order, and
     what a step grants, in grant order, followed by what is still waiting, is sorted by it. *)
  Fixpoint incr (n : nat) (h : list op) : Prop :=
    match h with
    | [] => True
    | OPut id _ :: h' => (n <= id)%nat /\ incr (S id) h'
    | OGet id _ :: h' => (n <= id)%nat /\ incr (S id) h'
    | _ :: h' => incr n h'
    end.

  Fixpoint bound (n : nat) (h : list op) : nat :=
    match h with
    | [] => n
    | OPut id _ :: h' => bound (S id) h'
    | OGet id _ :: h' => bound (S id) h'
    | _ :: h' => bound n h'
    end.

  Lemma bound_app : forall h1 h2 n, bound n (h1 ++ h2) = bound (bound n h1) h2.
  Proof. induction h1 as [|[] h1 IH]; cbn; auto. Qed.

  Lemma incr_app : forall h1 h2 n, incr n (h1 ++ h2) <-> incr n h1 /\ incr (bound n h1) h2.
  Proof. induction h1 as [|[] h1 IH]; cbn; intros h2 n; rewrite ?IH; tauto. Qed.

  Definition puts_of (l : list ev) : list (nat * P) :=
    flat_map (fun e => match e with EPut id p _ => [(id, p)] | _ => [] end) l.
  Definition gets_of (l : list ev) : list (nat * G) :=
    flat_map (fun e => match e with EGet id g _ => [(id, g)] | _ => [] end) l.

  Lemma puts_of_eput : forall gs, puts_of (map eput gs) = map fst gs.
  Proof. induction gs as [|[[id p] n] gs IH]; cbn; [|f_equal]; auto. Qed.
  Lemma gets_of_eput : forall gs, gets_of (map eput gs) = [].
  Proof. induction gs as [|[[id p] n] gs IH]; cbn; auto. Qed.
  Lemma gets_of_eget : forall gs, gets_of (map eget gs) = map fst gs.
  Proof. induction gs as [|[[id p] n] gs IH]; cbn; [|f_equal]; auto. Qed.
  Lemma puts_of_eget : forall gs, puts_of (map eget gs) = [].
  Proof. induction gs as [|[[id p] n] gs IH]; cbn; auto. Qed.

  Definition idlt {R} (a b : nat * R) : Prop := (fst a < fst b)%nat.

  Lemma sorted_snoc : forall R (q : list (nat * R)) n r,
      StronglySorted (@idlt R) q -> Forall (fun x => (fst x < n)%nat) q -> (n <= fst r)%nat ->
      StronglySorted (@idlt R) (q ++ [r]).
  Proof.
    intros R q n r Hs Hb Hn. apply StronglySorted_app. split; [exact Hs|]. split; [repeat constructor|].
    intros x y Hx [<-|[]]. exact (Nat.lt_le_trans _ _ _ (proj1 (Forall_forall _ _) Hb x Hx) Hn).
  Qed.

  Section Order.
    Variable plt : nat * P -> nat * P -> Prop.
    (* put_queue.append keeps the policy order when the new request has a fresh, larger id *)
    Hypothesis ins_sorted : forall n r q,
        (n <= fst r)%nat -> Forall (fun x => (fst x < n)%nat) q -> StronglySorted plt q ->
        StronglySorted plt (ins M r q).
    Hypothesis ins_in : forall r q x, In x (ins M r q) -> x = r \/ In x q.

    Definition QI (n : nat) (s : state) : Prop :=
      StronglySorted plt (putq s) /\ Forall (fun x => (fst x < n)%nat) (putq s) /\
      StronglySorted (@idlt G) (getq s) /\ Forall (fun x => (fst x < n)%nat) (getq s).

    Definition granted_then_waiting (s' : state) (outs : list ev) : Prop :=
      StronglySorted plt (puts_of outs ++ putq s') /\
      (get_all M = false -> StronglySorted (@idlt G) (gets_of outs ++ getq s')).

    Lemma QI_mono : forall n m s, (n <= m)%nat -> QI n s -> QI m s.
    Proof.
      intros n m s Hnm (H1 & H2 & H3 & H4).
      exact (conj H1 (conj (below_mono Hnm H2) (conj H3 (below_mono Hnm H4)))).
    Qed.

    Lemma QI_waiting : forall n s, QI n s -> granted_then_waiting s [].
    Proof. intros n s (H1 & _ & H3 & _). exact (conj H1 (fun _ => H3)). Qed.

    Lemma QI_enqueue_put : forall n s id p, QI n s -> (n <= id)%nat ->
        QI (S id) (St (now s) (content s) (ins M (id, p) (putq s)) (getq s) (pend s)).
    Proof.
      intros n s id p (H1 & H2 & H3 & H4) Hn. assert (Hm : (n <= S id)%nat) by lia.
      split; [exact (@ins_sorted n (id, p) _ Hn H2 H1)|].
      split; [|exact (conj H3 (below_mono Hm H4))].
      exact (ins_Forall (id, p) ins_in (Nat.lt_succ_diag_r id) (below_mono Hm H2)).
    Qed.

    Lemma QI_enqueue_get : forall n s id g, QI n s -> (n <= id)%nat ->
        QI (S id) (St (now s) (content s) (putq s) (getq s ++ [(id, g)]) (pend s)).
    Proof.
      intros n s id g (H1 & H2 & H3 & H4) Hn. assert (Hm : (n <= S id)%nat) by lia.
      split; [exact H1|]. split; [exact (below_mono Hm H2)|].
      split; [exact (sorted_snoc (id, g) H3 H4 Hn)|].
      apply Forall_app. split; [exact (below_mono Hm H4)|]. constructor; [exact (Nat.lt_succ_diag_r id)|constructor].
    Qed.

    Lemma QI_trigger_put : forall n s s' o,
        QI n s -> trigger_put M s = (s', o) -> QI n s' /\ granted_then_waiting s' o.
    Proof.
      intros n s s' o (H1 & H2 & H3 & H4) H.
      destruct (trigger_put_spec _ H) as (c & gs & rest & (_ & Hi & Hq & _) & -> & ->).
      destruct (interleave_sorted Hi H1) as [_ S]. destruct (interleave_Forall Hi H2) as [_ F].
      unfold QI, granted_then_waiting. cbn. rewrite puts_of_eput, gets_of_eput, <- Hq.
      exact (conj (conj S (conj F (conj H3 H4))) (conj H1 (fun _ => H3))).
    Qed.

    Lemma QI_trigger_get : forall n s s' o,
        QI n s -> trigger_get M s = (s', o) -> QI n s' /\ granted_then_waiting s' o.
    Proof.
      intros n s s' o (H1 & H2 & H3 & H4) H.
      destruct (trigger_get_spec _ H) as (c & gs & rest & (_ & Hi & Hb) & -> & ->).
      destruct (interleave_sorted Hi H3) as [_ S]. destruct (interleave_Forall Hi H4) as [_ F].
      unfold QI, granted_then_waiting. cbn. rewrite puts_of_eget, gets_of_eget.
      split; [exact (conj H1 (conj H2 (conj S F)))|]. split; [exact H1|].
      intros Hga. rewrite Hga in Hb. destruct Hb as [<- _]. exact H3.
    Qed.

    Lemma QI_step : forall n s o s' outs,
        QI n s -> incr n [o] -> step M s o = (s', outs) ->
        QI (bound n [o]) s' /\ granted_then_waiting s' outs.
    Proof.
      intros n s o s' outs HQ Hi H.
      assert (Hid : forall m, (n <= m)%nat -> QI m s /\ granted_then_waiting s []).
      { intros m Hm. apply (QI_mono Hm) in HQ. exact (conj HQ (QI_waiting HQ)). }
      destruct o as [t|id p|id g|id|id]; cbn in Hi, H |- *.
      - injection H as <- <-. exact (Hid n (le_n n)).
      - destruct Hi as [Hi _]. destruct (okp M p); [|injection H as <- <-; exact (Hid _ (le_S _ _ Hi))].
        exact (QI_trigger_put (QI_enqueue_put p HQ Hi) H).
      - destruct Hi as [Hi _]. destruct (okg M g); [|injection H as <- <-; exact (Hid _ (le_S _ _ Hi))].
        exact (QI_trigger_get (QI_enqueue_get g HQ Hi) H).
      - injection H as <- <-. destruct HQ as (H1 & H2 & H3 & H4).
        assert (HQ' : QI n (St (now s) (content s) (remove_id id (putq s)) (remove_id id (getq s)) (pend s))).
        { exact (conj (StronglySorted_filter _ _ _ H1) (conj (incl_Forall (incl_filter _ _) H2)
                (conj (StronglySorted_filter _ _ _ H3) (incl_Forall (incl_filter _ _) H4)))). }
        exact (conj HQ' (QI_waiting HQ')).
      - destruct (take_pend id (pend s)) as [[[|] l]|]; [..|injection H as <- <-; exact (Hid n (le_n n))].
        + exact (QI_trigger_get (s := St (now s) (content s) (putq s) (getq s) l) HQ H).
        + exact (QI_trigger_put (s := St (now s) (content s) (putq s) (getq s) l) HQ H).
    Qed.

    Theorem QI_run : forall h n s s' outs,
        QI n s -> incr n h -> run M s h = (s', outs) -> QI (bound n h) s'.
    Proof.
      induction h as [|o h IH]; intros n s s' outs HQ Hi H.
      - cbn in *. injection H as <- <-. exact HQ.
      - apply (incr_app [o] h) in Hi as [Hi1 Hi2]. rewrite (bound_app [o] h).
        cbn [run] in H. destruct (step M s o) as [s1 e1] eqn:E1. destruct (run M s1 h) as [s2 e2] eqn:E2.
        injection H as <- <-. exact (IH _ _ _ _ (proj1 (QI_step _ HQ Hi1 E1)) Hi2 E2).
    Qed.

    Theorem grant_order : forall c0 h o s outs0 s' outs,
        incr 0 (h ++ [o]) -> run M (init c0) h = (s, outs0) -> step M s o = (s', outs) ->
        granted_then_waiting s' outs.
    Proof.
      intros c0 h o s outs0 s' outs Hi Hr Hs. apply incr_app in Hi as [Hi1 Hi2].
      assert (HQ0 : QI 0 (init c0 : state)) by (repeat split; constructor).
      exact (proj2 (QI_step _ (QI_run h HQ0 Hi1 Hr) Hi2 Hs)).
    Qed.
  End Order.

  (* No idle capacity with a grantable head.
     J: if the head of a queue is grantable then the callbacks of a granted request of the
     OPPOSITE kind are still waiting to be processed (they re-trigger this queue).
     Every operation other than cancel keeps J; the own trigger establishes it from any state. *)
  Section Head.
    Hypothesis now_indep_put : forall t t' c r, is_some (do_put M t c r) = is_some (do_put M t' c r).
    Hypothesis now_indep_get : forall t t' c r, is_some (do_get M t c r) = is_some (do_get M t' c r).
    (* FilterStore: handing out an item does not make another request grantable *)
    Hypothesis get_mono : get_all M = true ->
        forall t c r c1 n r', do_get M t c r = Some (c1, n) -> do_get M t c r' = None -> do_get M t c1 r' = None.

    Definition Jput (s : state) : Prop := grantable_put M s = true -> exists id, In (id, false) (pend s).
    Definition Jget (s : state) : Prop := grantable_get M s = true -> exists id, In (id, true) (pend s).

    Lemma take_pend_in : forall id l b l' x, take_pend id l = Some (b, l') -> In x l' -> In x l.
    Proof.
      induction l as [|[i b0] l IH]; cbn; intros b l' x H Hx; [discriminate|].
      destruct (Nat.eqb i id); [injection H as <- <-; auto|].
      destruct (take_pend id l) as [[b' r]|]; [|discriminate]. injection H as <- <-.
      destruct Hx as [Hx|Hx]; [left; exact Hx|right; exact (IH _ _ _ eq_refl Hx)].
    Qed.

    Lemma take_pend_keep : forall id l b l' x, take_pend id l = Some (b, l') -> In x l -> snd x <> b -> In x l'.
    Proof.
      induction l as [|[i b0] l IH]; cbn; intros b l' x H Hx Hn; [discriminate|].
      destruct (Nat.eqb i id).
      - injection H as <- <-. destruct Hx as [<-|Hx]; [destruct Hn; reflexivity|exact Hx].
      - destruct (take_pend id l) as [[b' r]|]; [|discriminate]. injection H as <- <-.
        destruct Hx as [Hx|Hx]; [left; exact Hx|right; exact (IH _ _ _ eq_refl Hx Hn)].
    Qed.

    Lemma trigger_put_Jput : forall s s' o, trigger_put M s = (s', o) -> grantable_put M s' = false.
    Proof.
      intros s s' o H. destruct (trigger_put_spec _ H) as (c & gs & rest & (_ & _ & _ & Hb) & -> & _).
      unfold grantable_put; cbn. destruct rest; [reflexivity|]. rewrite Hb; reflexivity.
    Qed.

    Lemma trigger_get_Jget : forall s s' o, trigger_get M s = (s', o) -> grantable_get M s' = false.
    Proof.
      intros s s' o H. destruct (trigger_get_spec _ H) as (c & gs & rest & (_ & _ & Hb) & -> & _).
      unfold grantable_get; cbn. revert Hb. destruct (get_all M); intros Hb.
      - apply not_true_is_false. intros Hx. apply existsb_exists in Hx as (x & Hx & Hs).
        rewrite (proj1 (Forall_forall _ _) (Hb (@get_mono eq_refl (now s))) x Hx) in Hs. discriminate.
      - destruct Hb as [_ Hb]. destruct rest; [reflexivity|]. rewrite Hb; reflexivity.
    Qed.

    Lemma trigger_put_cases : forall s s' o, trigger_put M s = (s', o) ->
        (s' = s /\ o = []) \/ (exists id, In (id, true) (pend s')).
    Proof.
      intros s s' o H. destruct (trigger_put_spec _ H) as (c & [|g gs] & rest & Hsv & -> & ->).
      - left. destruct (served_nil Hsv) as [-> ->]. cbn. rewrite app_nil_r. destruct s; auto.
      - right. exists (gid g). cbn. apply in_or_app. right. left. reflexivity.
    Qed.

    Lemma trigger_get_cases : forall s s' o, trigger_get M s = (s', o) ->
        (s' = s /\ o = []) \/ (exists id, In (id, false) (pend s')).
    Proof.
      intros s s' o H. destruct (trigger_get_spec _ H) as (c & [|g gs] & rest & Hsv & -> & ->).
      - left. destruct (served_nil Hsv) as [-> ->]. cbn. rewrite app_nil_r. destruct s; auto.
      - right. exists (gid g). cbn. apply in_or_app. right. left. reflexivity.
    Qed.

    Lemma grantable_put_now : forall s t,
        grantable_put M (St t (content s) (putq s) (getq s) (pend s)) = grantable_put M s.
    Proof. intros. unfold grantable_put; cbn. destruct (putq s); [reflexivity|apply now_indep_put]. Qed.

    Lemma grantable_get_now : forall s t,
        grantable_get M (St t (content s) (putq s) (getq s) (pend s)) = grantable_get M s.
    Proof.
      intros. unfold grantable_get; cbn. destruct (get_all M).
      - induction (getq s) as [|r q IH]; cbn; [reflexivity|]. rewrite IH. f_equal. apply now_indep_get.
      - destruct (getq s); [reflexivity|apply now_indep_get].
    Qed.

    Lemma trigger_put_pend : forall s s' o x, trigger_put M s = (s', o) -> In x (pend s) -> In x (pend s').
    Proof.
      intros s s' o x H Hx. destruct (trigger_put_spec _ H) as (c & gs & rest & _ & -> & _).
      apply in_or_app. left. exact Hx.
    Qed.

    Lemma trigger_get_pend : forall s s' o x, trigger_get M s = (s', o) -> In x (pend s) -> In x (pend s').
    Proof.
      intros s s' o x H Hx. destruct (trigger_get_spec _ H) as (c & gs & rest & _ & -> & _).
      apply in_or_app. left. exact Hx.
    Qed.

    Definition triggers_put (s : state) (o : op) : bool :=
      match o with
      | OPut _ p => okp M p
      | OProc id => match take_pend id (pend s) with Some (false, _) => true | _ => false end
      | _ => false
      end.

    Definition triggers_get (s : state) (o : op) : bool :=
      match o with
      | OGet _ g => okg M g
      | OProc id => match take_pend id (pend s) with Some (true, _) => true | _ => false end
      | _ => false
      end.

    Theorem step_establishes_Jput : forall s o s' outs,
        step M s o = (s', outs) -> triggers_put s o = true -> grantable_put M s' = false.
    Proof.
      intros s o s' outs H Ht. destruct o as [t|id p|id g|id|id]; cbn in *; try discriminate.
      - rewrite Ht in H. exact (trigger_put_Jput _ H).
      - destruct (take_pend id (pend s)) as [[[|] l]|]; try discriminate. exact (trigger_put_Jput _ H).
    Qed.

    Theorem step_establishes_Jget : forall s o s' outs,
        step M s o = (s', outs) -> triggers_get s o = true -> grantable_get M s' = false.
    Proof.
      intros s o s' outs H Ht. destruct o as [t|id p|id g|id|id]; cbn in *; try discriminate.
      - rewrite Ht in H. exact (trigger_get_Jget _ H).
      - destruct (take_pend id (pend s)) as [[[|] l]|]; try discriminate. exact (trigger_get_Jget _ H).
    Qed.

    Lemma trigger_put_J : forall s s' o, trigger_put M s = (s', o) -> Jget s -> Jput s' /\ Jget s'.
    Proof.
      intros s s' o H HG. split; [intros Hx; rewrite (trigger_put_Jput _ H) in Hx; discriminate|].
      destruct (trigger_put_cases _ H) as [[-> _]|Hid]; [exact HG|intros _; exact Hid].
    Qed.

    Lemma trigger_get_J : forall s s' o, trigger_get M s = (s', o) -> Jput s -> Jput s' /\ Jget s'.
    Proof.
      intros s s' o H HP. split; [|intros Hx; rewrite (trigger_get_Jget _ H) in Hx; discriminate].
      destruct (trigger_get_cases _ H) as [[-> _]|Hid]; [exact HP|intros _; exact Hid].
    Qed.

    Theorem step_keeps_J : forall s o s' outs,
        step M s o = (s', outs) -> is_cancel o = false -> Jput s /\ Jget s -> Jput s' /\ Jget s'.
    Proof.
      intros s o s' outs H Hc [HP HG]. destruct o as [t|id p|id g|id|id]; cbn in *; try discriminate.
      - injection H as <- <-. unfold Jput, Jget. rewrite grantable_put_now, grantable_get_now. exact (conj HP HG).
      - destruct (okp M p); [exact (trigger_put_J H HG)|injection H as <- <-; exact (conj HP HG)].
      - destruct (okg M g); [exact (trigger_get_J H HP)|injection H as <- <-; exact (conj HP HG)].
      - (* processing a callback takes one entry of the other kind off pend *)
        destruct (take_pend id (pend s)) as [[[|] l]|] eqn:E.
        + apply (trigger_get_J H). intros Hx. destruct (HP Hx) as [i Hi].
          exists i. refine (take_pend_keep _ _ _ E Hi _). discriminate.
        + apply (trigger_put_J H). intros Hx. destruct (HG Hx) as [i Hi].
          exists i. refine (take_pend_keep _ _ _ E Hi _). discriminate.
        + injection H as <- <-. exact (conj HP HG).
    Qed.

    Definition cancel_free (h : list op) : Prop := Forall (fun o => is_cancel o = false) h.

    Theorem run_keeps_J : forall h s s' outs,
        run M s h = (s', outs) -> cancel_free h -> Jput s /\ Jget s -> Jput s' /\ Jget s'.
    Proof.
      induction h as [|o h IH]; cbn; intros s s' outs H Hc HJ.
      - injection H as <- <-. exact HJ.
      - destruct (step M s o) as [s1 e1] eqn:E1. destruct (run M s1 h) as [s2 e2] eqn:E2.
        injection H as <- <-. apply Forall_cons_iff in Hc as [Ho Hc].
        exact (IH _ _ _ E2 Hc (step_keeps_J _ E1 Ho HJ)).
    Qed.

    (* at the end of a time step (no callbacks left to process) of a cancel-free history no head is grantable *)
    Theorem quiescent_no_grantable_head : forall c0 h s outs,
        run M (init c0) h = (s, outs) -> cancel_free h -> pend s = [] ->
        grantable_put M s = false /\ grantable_get M s = false.
    Proof.
      intros c0 h s outs H Hc Hp.
      assert (HJ : Jput s /\ Jget s).
      { apply (run_keeps_J H Hc). unfold Jput, Jget, grantable_put, grantable_get, init; cbn.
        destruct (get_all M); split; intros; discriminate. }
      destruct HJ as [HP HG]. unfold Jput, Jget in *. rewrite Hp in *.
      split; apply not_true_is_false; intros Hx.
      - destruct (HP Hx) as [? []].
      - destruct (HG Hx) as [? []].
    Qed.
  End Head.

  (* cancel gives back exactly what was held: nothing but the place in the queue *)
  Theorem cancel_exact : forall s id,
      step M s (OCancel id) =
      (St (now s) (content s) (remove_id id (putq s)) (remove_id id (getq s)) (pend s), []).
  Proof. reflexivity. Qed.

  Lemma remove_id_spec : forall R (q : list (nat * R)) id x,
      In x (remove_id id q) <-> In x q /\ fst x <> id.
  Proof.
    intros R q id x. unfold remove_id. rewrite filter_In.
    destruct (Nat.eqb_spec (fst x) id); cbn; split; intros [H1 H2]; split; auto; congruence.
  Qed.
End Generic.

Section Remove1.
  Variable A : Type.
  Variable eqb : A -> A -> bool.
  Hypothesis eqb_spec : forall a b, eqb a b = true <-> a = b.

  (* list.remove(x): the first occurrence *)
  Fixpoint remove1 (x : A) (l : list A) : list A :=
    match l with [] => [] | y :: l' => if eqb y x then l' else y :: remove1 x l' end.

  Lemma remove1_in : forall x l, In x l -> Permutation l (x :: remove1 x l).
  Proof.
    induction l as [|y l IH]; simpl; intros H; [tauto|].
    destruct (eqb y x) eqn:E.
    - apply eqb_spec in E. subst. apply Permutation_refl.
    - destruct H as [H|H]; [subst; rewrite (proj2 (eqb_spec x x) eq_refl) in E; discriminate|].
      exact (perm_trans (perm_skip y (IH H)) (perm_swap x y _)).
  Qed.

  Lemma remove1_notin : forall x l, ~ In x l -> remove1 x l = l.
  Proof.
    induction l as [|y l IH]; simpl; intros H; auto.
    destruct (eqb y x) eqn:E.
    - apply eqb_spec in E. subst. tauto.
    - f_equal. apply IH. tauto.
  Qed.

  Lemma remove1_perm : forall x l l', Permutation l l' -> Permutation (remove1 x l) (remove1 x l').
  Proof.
    intros x l l' H. induction H; simpl.
    - constructor.
    - destruct (eqb x0 x); auto.
    - destruct (eqb y x) eqn:E1; destruct (eqb x0 x) eqn:E2; auto.
      + apply eqb_spec in E1. apply eqb_spec in E2. subst. apply Permutation_refl.
      + apply perm_swap.
    - eapply perm_trans; eauto.
  Qed.

  Lemma remove1_length : forall x l, In x l -> S (length (remove1 x l)) = length l.
  Proof. intros x l H. symmetry. exact (Permutation_length (remove1_in x l H)). Qed.
End Remove1.

Section Sinsert.
  Variable A : Type.
  Variable le : A -> A -> bool.

  Lemma sinsert_perm : forall x l, Permutation (x :: l) (sinsert le x l).
  Proof.
    induction l as [|y l IH]; simpl; auto.
    destruct (le y x); auto. exact (perm_trans (perm_swap y x l) (perm_skip y IH)).
  Qed.

  Lemma sinsert_length : forall x l, length (sinsert le x l) = S (length l).
  Proof. intros. symmetry. apply (Permutation_length (sinsert_perm x l)). Qed.

  Lemma sinsert_in : forall x l y, In y (sinsert le x l) -> y = x \/ In y l.
  Proof.
    intros x l y H. apply (Permutation_in _ (Permutation_sym (sinsert_perm x l))) in H as [<-|H]; auto.
  Qed.

  (* SortedList.add keeps a list sorted for any order R that le decides against the new element x: what le puts
     in front of x is R-before x, what it puts behind is R-after x together with everything R-after it *)
  Lemma sinsert_sorted_by : forall (R : A -> A -> Prop) x l,
      (forall y, In y l -> le y x = true -> R y x) ->
      (forall y, In y l -> le y x = false -> R x y /\ forall z, R y z -> R x z) ->
      StronglySorted R l -> StronglySorted R (sinsert le x l).
  Proof.
    intros R x l Hle Hge S. revert Hle Hge. induction S as [|y l S IH F]; simpl; intros Hle Hge.
    - repeat constructor.
    - destruct (le y x) eqn:E.
      + constructor; [apply IH; intros z Hz; [apply Hle|apply Hge]; right; exact Hz|].
        apply (Permutation_Forall (sinsert_perm x l)). constructor; [apply Hle; [left; reflexivity|exact E]|exact F].
      + destruct (Hge y (or_introl eq_refl) E) as [Hxy Hx]. constructor; [constructor; assumption|].
        constructor; [exact Hxy|exact (Forall_impl _ Hx F)].
  Qed.

  Hypothesis le_total : forall a b, le a b = false -> le b a = true.
  Hypothesis le_trans : forall a b c, le a b = true -> le b c = true -> le a c = true.

  Lemma sinsert_sorted : forall x l,
      StronglySorted (fun a b => le a b = true) l -> StronglySorted (fun a b => le a b = true) (sinsert le x l).
  Proof.
    intros x l. apply sinsert_sorted_by; [auto|]. intros y _ E. apply le_total in E. split; [exact E|].
    intros z. exact (@le_trans x y z E).
  Qed.
End Sinsert.

Definition klt (a b : Z * Z * Z) : Prop :=
  let '(a1, a2, a3) := a in
  let '(b1, b2, b3) := b in
  a1 < b1 \/ (a1 = b1 /\ (a2 < b2 \/ (a2 = b2 /\ a3 < b3))).

Lemma lex3_lt_spec : forall a b, lex3_lt a b = true <-> klt a b.
Proof.
  intros [[a1 a2] a3] [[b1 b2] b3]. unfold lex3_lt, klt.
  rewrite !orb_true_iff, !andb_true_iff, !orb_true_iff, !andb_true_iff, !Z.ltb_lt, !Z.eqb_eq. tauto.
Qed.

Lemma lex3_le_spec : forall a b, lex3_le a b = true <-> ~ klt b a.
Proof.
  intros a b. unfold lex3_le. rewrite negb_true_iff, <- lex3_lt_spec. symmetry. apply not_true_iff_false.
Qed.

Lemma klt_cases : forall a b, klt a b \/ a = b \/ klt b a.
Proof.
  intros [[a1 a2] a3] [[b1 b2] b3]. unfold klt.
  destruct (Z.eq_dec a1 b1), (Z.eq_dec a2 b2), (Z.eq_dec a3 b3); subst; auto; lia.
Qed.

Lemma klt_trans : forall a b c, klt a b -> klt b c -> klt a c.
Proof. intros [[a1 a2] a3] [[b1 b2] b3] [[c1 c2] c3]. unfold klt. lia. Qed.

Lemma klt_irrefl : forall a, ~ klt a a.
Proof. intros [[a1 a2] a3]. unfold klt. lia. Qed.

Lemma lex3_le_refl : forall a, lex3_le a a = true.
Proof. intros a. apply lex3_le_spec, klt_irrefl. Qed.

Lemma lex3_le_total : forall a b, lex3_le a b = false -> lex3_le b a = true.
Proof.
  intros a b H. apply negb_false_iff, lex3_lt_spec in H. apply lex3_le_spec. intros Hk.
  exact (klt_irrefl _ (klt_trans _ _ _ H Hk)).
Qed.

Lemma lex3_le_trans : forall a b c, lex3_le a b = true -> lex3_le b c = true -> lex3_le a c = true.
Proof.
  intros a b c H1 H2. apply lex3_le_spec in H1, H2. apply lex3_le_spec. intros Hk.
  destruct (klt_cases a b) as [H|[->|H]]; [exact (H2 (klt_trans _ _ _ Hk H))|exact (H2 Hk)|exact (H1 H)].
Qed.

Section ContainerProps.
  Variable cap : Z.
  Notation cev := (ev Z Z unit).

  Definition sum_puts (tr : list cev) : Z :=
    fold_right (fun e a => match e with EPut _ x _ => x + a | _ => a end) 0 tr.
  Definition sum_gets (tr : list cev) : Z :=
    fold_right (fun e a => match e with EGet _ x _ => x + a | _ => a end) 0 tr.

  Lemma sum_puts_app : forall a b, sum_puts (a ++ b) = sum_puts a + sum_puts b.
  Proof. induction a as [|[] a IH]; simpl; intros; auto; rewrite IH; lia. Qed.
  Lemma sum_gets_app : forall a b, sum_gets (a ++ b) = sum_gets a + sum_gets b.
  Proof. induction a as [|[] a IH]; simpl; intros; auto; rewrite IH; lia. Qed.

  (* level within [0, capacity] and level = initial + granted puts - granted gets, for ALL histories *)
  Theorem container_bounds_conservation : forall i h s tr,
      0 <= i <= cap -> run (container cap) (init i) h = (s, tr) ->
      0 <= content s <= cap /\ content s = i + sum_puts tr - sum_gets tr.
  Proof.
    intros i h s tr Hi H. pattern (content s), tr.
    refine (@R_run _ _ _ _ (container cap) (@append_in _) _ _ _ i h s tr _ H); cbn beta.
    - simpl. intros t c tr0 id p c' n Hok [Hb He] Hd.
      apply Z.ltb_lt in Hok. destruct (Z.leb_spec p (cap - c)); inversion Hd; subst.
      rewrite sum_puts_app, sum_gets_app. simpl. lia.
    - simpl. intros t c tr0 id g c' n Hok [Hb He] Hd.
      apply Z.ltb_lt in Hok. destruct (Z.leb_spec g c); inversion Hd; subst.
      rewrite sum_puts_app, sum_gets_app. simpl. lia.
    - simpl. lia.
  Qed.
End ContainerProps.

Definition item_eqb (a b : item) : bool := (fst a =? fst b) && (snd a =? snd b).

Lemma item_eqb_spec : forall a b, item_eqb a b = true <-> a = b.
Proof.
  intros [a1 a2] [b1 b2]. unfold item_eqb; simpl. rewrite andb_true_iff, !Z.eqb_eq.
  split; [intros [-> ->]; auto|intros H; inversion H; auto].
Qed.

Section StoreProps.
  Variable Gt : Type.
  Notation sev := (ev item Gt (option item)).

  (* items accepted / handed out, in order *)
  Definition put_items (tr : list sev) : list item :=
    flat_map (fun e => match e with EPut _ x _ => [x] | _ => [] end) tr.
  Definition got_items (tr : list sev) : list item :=
    flat_map (fun e => match e with EGet _ _ (Some x) => [x] | _ => [] end) tr.
  Definition got_something (e : sev) : Prop :=
    match e with EGet _ _ None => False | _ => True end.
End StoreProps.

Section StoreFifo.
  Variable cap : nat.

  (* Store: the items handed out are a prefix of the items accepted, the rest is the content *)
  Theorem store_fifo_exactly_once : forall h s tr,
      run (store cap) (init []) h = (s, tr) ->
      put_items tr = got_items tr ++ content s /\ (length (content s) <= cap)%nat /\
      Forall (@got_something unit) tr.
  Proof.
    intros h s tr H. pattern (content s), tr.
    refine (@R_run _ _ _ _ (store cap) (@append_in _) _ _ _ [] h s tr _ H); cbn beta.
    - simpl. intros t c tr0 id p c' n _ (He & Hl & Hf) Hd.
      destruct (Nat.ltb_spec (length c) cap); inversion Hd; subst.
      unfold put_items, got_items in *. rewrite !flat_map_app. simpl. rewrite app_nil_r, He, app_assoc.
      repeat split; auto.
      + rewrite app_length. simpl. lia.
      + apply Forall_app; split; auto. repeat constructor.
    - simpl. intros t c tr0 id g c' n _ (He & Hl & Hf) Hd.
      destruct c as [|x c]; simpl in Hd; inversion Hd; subst.
      unfold put_items, got_items in *. rewrite !flat_map_app. simpl. rewrite app_nil_r, He, <- app_assoc.
      repeat split; auto.
      + simpl in Hl. lia.
      + apply Forall_app; split; auto. repeat constructor.
    - simpl. repeat split; auto; try constructor; lia.
  Qed.
End StoreFifo.

(* PriorityStore: abstract specification = a bag; a get must return an element of the bag whose key
   is minimal and removes exactly that element *)
Fixpoint bag_run (b : list item) (tr : list (ev item unit (option item))) : option (list item) :=
  match tr with
  | [] => Some b
  | EPut _ x _ :: tr' => bag_run (x :: b) tr'
  | EGet _ _ (Some x) :: tr' =>
      if existsb (fun y => item_eqb y x) b && forallb (fun y => ikey x <=? ikey y) b
      then bag_run (remove1 item_eqb x b) tr' else None
  | EGet _ _ None :: _ => None
  end.

Lemma bag_run_app : forall t1 t2 b,
    bag_run b (t1 ++ t2) = match bag_run b t1 with Some b1 => bag_run b1 t2 | None => None end.
Proof.
  induction t1 as [|e t1 IH]; simpl; intros; auto.
  destruct e as [id x n|id g [x|]]; auto.
  destruct (existsb _ b && forallb _ b); auto.
Qed.

Definition item_leP (a b : item) : Prop := item_le a b = true.

Lemma item_le_total : forall a b, item_le a b = false -> item_le b a = true.
Proof. unfold item_le. intros a b H. apply Z.leb_gt in H. apply Z.leb_le. lia. Qed.
Lemma item_le_trans : forall a b c, item_le a b = true -> item_le b c = true -> item_le a c = true.
Proof. unfold item_le. intros a b c H1 H2. apply Z.leb_le in H1, H2. apply Z.leb_le. lia. Qed.

Section PriorityStoreProps.
  Variable cap : nat.

  Theorem prioritystore_min_first : forall h s tr,
      run (prioritystore cap) (init []) h = (s, tr) ->
      StronglySorted item_leP (content s) /\ (length (content s) <= cap)%nat /\
      exists b, bag_run [] tr = Some b /\ Permutation b (content s).
  Proof.
    intros h s tr H. pattern (content s), tr.
    refine (@R_run _ _ _ _ (prioritystore cap) (@append_in _) _ _ _ [] h s tr _ H); cbn beta.
    - simpl. intros t c tr0 id p c' n _ (Hs & Hl & b & Hb & Hp) Hd.
      destruct (Nat.ltb_spec (length c) cap); inversion Hd; subst. repeat split.
      + apply sinsert_sorted; [apply item_le_total|apply item_le_trans|auto].
      + rewrite sinsert_length. lia.
      + exists (p :: b). rewrite bag_run_app, Hb. simpl. split; auto.
        exact (perm_trans (perm_skip p Hp) (sinsert_perm item_le p c)).
    - simpl. intros t c tr0 id g c' n _ (Hs & Hl & b & Hb & Hp) Hd.
      destruct c as [|x c]; simpl in Hd; inversion Hd; subst.
      apply StronglySorted_inv in Hs as [Hs' Hf]. repeat split; auto.
      + simpl in Hl. lia.
      + exists (remove1 item_eqb x b). rewrite bag_run_app, Hb. simpl.
        assert (Hin : In x b) by (apply (Permutation_in _ (Permutation_sym Hp)); left; auto).
        assert (E1 : existsb (fun y => item_eqb y x) b = true).
        { apply existsb_exists. exists x. split; auto. apply item_eqb_spec; auto. }
        assert (E2 : forallb (fun y => ikey x <=? ikey y) b = true).
        { apply forallb_forall. intros y Hy. apply (Permutation_in _ Hp) in Hy.
          destruct Hy as [<-|Hy]; [apply Z.leb_refl|]. exact (proj1 (Forall_forall _ _) Hf y Hy). }
        rewrite E1, E2. simpl. split; auto.
        apply Permutation_cons_inv with (a := x).
        exact (perm_trans (Permutation_sym (remove1_in _ item_eqb_spec x b Hin)) Hp).
    - simpl. split; [constructor|]. split; [lia|]. exists []. split; auto.
  Qed.
End PriorityStoreProps.

(* FilterStore: abstract specification = the list of stored items in arrival order; a get with filter f
   receives the FIRST stored item that f accepts *)
Inductive fs_spec : list item -> list (ev item (Z * Z) (option item)) -> list item -> Prop :=
| fs_nil : forall l, fs_spec l [] l
| fs_put : forall l id x n tr l', fs_spec (l ++ [x]) tr l' -> fs_spec l (EPut id x n :: tr) l'
| fs_get : forall l1 x l2 id f tr l',
    Forall (fun y => accepts f y = false) l1 -> accepts f x = true ->
    fs_spec (l1 ++ l2) tr l' -> fs_spec (l1 ++ x :: l2) (EGet id f (Some x) :: tr) l'.

Lemma fs_spec_app : forall a t1 b, fs_spec a t1 b -> forall t2 c, fs_spec b t2 c -> fs_spec a (t1 ++ t2) c.
Proof. induction 1; simpl; intros; auto; constructor; auto. Qed.

Lemma first_match_spec : forall f l x l', first_match f l = Some (x, l') ->
    exists l1 l2, l = l1 ++ x :: l2 /\ Forall (fun y => f y = false) l1 /\ f x = true /\ l' = l1 ++ l2.
Proof.
  induction l as [|y l IH]; simpl; intros x l' H; [discriminate|].
  destruct (f y) eqn:E.
  - injection H as <- <-. exists [], l. auto.
  - destruct (first_match f l) as [[z r]|]; [|discriminate]. injection H as <- <-.
    destruct (IH _ _ eq_refl) as (l1 & l2 & -> & Hf & Hx & ->).
    exists (y :: l1), l2. simpl. auto.
Qed.

Lemma first_match_none : forall f l, first_match f l = None <-> Forall (fun y => f y = false) l.
Proof.
  induction l as [|y l IH]; simpl; [split; auto|].
  rewrite Forall_cons_iff, <- IH. destruct (f y); [split; [discriminate|intros [[=] _]]|].
  destruct (first_match f l) as [[z r]|]; split; [discriminate|intros [_ [=]]|auto|auto].
Qed.

Section FilterStoreProps.
  Variable cap : nat.

  Lemma filterstore_get_mono : forall t c r c1 n r',
      do_get (filterstore cap) t c r = Some (c1, n) -> do_get (filterstore cap) t c r' = None ->
      do_get (filterstore cap) t c1 r' = None.
  Proof.
    simpl. intros t c r c1 n r' H1 H2.
    destruct (first_match (accepts (snd r)) c) as [[x l]|] eqn:E; inversion H1; subst.
    destruct (first_match (accepts (snd r')) c) as [[y l']|] eqn:E'; [discriminate|].
    apply first_match_spec in E. destruct E as (l1 & l2 & -> & _ & _ & ->).
    apply first_match_none, Forall_app in E'. destruct E' as [Ha Hb]. apply Forall_inv_tail in Hb.
    rewrite (proj2 (first_match_none _ _) (proj2 (Forall_app _ _ _) (conj Ha Hb))). reflexivity.
  Qed.
End FilterStoreProps.

Inductive rkind := RPlain | RPriority | RPreemptive.

Definition res_mach (k : rkind) (cap : nat) : mach (list user) req nat (option user) :=
  match k with
  | RPlain => resource cap
  | RPriority => priorityresource cap
  | RPreemptive => preemptiveresource cap
  end.

Notation rev_ := (ev req nat (option user)).

(* abstract specification: who holds a slot, computed from the trace of grants alone *)
Definition holders_step (hs : list nat) (e : rev_) : list nat :=
  match e with
  | EPut id _ None => hs ++ [id]
  | EPut id _ (Some v) => remove1 Nat.eqb (uid v) hs ++ [id]
  | EGet _ rid _ => remove1 Nat.eqb rid hs
  end.
Definition holders (tr : list rev_) : list nat := fold_left holders_step tr [].

Lemma remove_user_map : forall rid c, map uid (remove_user rid c) = remove1 Nat.eqb rid (map uid c).
Proof.
  induction c as [|u c IH]; simpl; auto. destruct (Nat.eqb (uid u) rid); simpl; auto. f_equal; auto.
Qed.

Definition user_leP (a b : user) : Prop := user_le a b = true.

Lemma user_le_total : forall a b, user_le a b = false -> user_le b a = true.
Proof. intros a b. apply lex3_le_total. Qed.
Lemma user_le_trans : forall a b c, user_le a b = true -> user_le b c = true -> user_le a c = true.
Proof. intros a b c. apply lex3_le_trans. Qed.

Lemma sinsert_user_sorted : forall u c,
    StronglySorted user_leP c -> StronglySorted user_leP (sinsert user_le u c).
Proof. intros u c. apply sinsert_sorted; [exact user_le_total|exact user_le_trans]. Qed.

Lemma res_mach_ins_in : forall k cap r q x, In x (ins (res_mach k cap) r q) -> x = r \/ In x q.
Proof. intros [] cap r q x H; [exact (append_in _ _ _ H)|exact (sinsert_in _ _ _ _ H)..]. Qed.

Lemma rev_last : forall A (c : list A) v r, rev c = v :: r -> c = rev r ++ [v] /\ removelast c = rev r.
Proof.
  intros A c v r H. assert (Hc : c = rev r ++ [v]) by (rewrite <- (rev_involutive c), H; reflexivity).
  split; [exact Hc|]. rewrite Hc. apply removelast_last.
Qed.

Lemma res_put_spec : forall cap t c r c' n,
    res_put cap t c r = Some (c', n) -> (length c < cap)%nat /\ c' = c ++ [(r, t)] /\ n = None.
Proof.
  unfold res_put. intros cap t c r c' n H. destruct (Nat.ltb_spec (length c) cap); [|discriminate].
  injection H as <- <-. auto.
Qed.

Definition evict_ok (cap : nat) (c : list user) (p : req) (v : user) : Prop :=
  preempt p = true /\ klt (rkey p) (rkey (ureq v)) /\ (cap <= length c)%nat /\ In v c /\
  Forall (fun u => user_le u v = true) c.

Lemma pre_put_spec : forall cap t c r c' n,
    StronglySorted user_leP c -> pre_put cap t c r = Some (c', n) ->
    match n with
    | None => (length c < cap)%nat /\ c' = sinsert user_le (r, t) c
    | Some v => evict_ok cap c (snd r) v /\ c = removelast c ++ [v] /\
                c' = sinsert user_le (r, t) (removelast c)
    end.
Proof.
  unfold pre_put. intros cap t c r c' n Hs H. destruct (preempt_victim cap c (snd r)) as [v|] eqn:Ev.
  - destruct (Nat.ltb_spec (length (removelast c)) cap); inversion H; subst. unfold preempt_victim in Ev.
    destruct ((cap <=? length c)%nat && preempt (snd r)) eqn:E; [|discriminate].
    apply andb_true_iff in E. destruct E as [E1 E2]. apply Nat.leb_le in E1.
    destruct (rev c) as [|v' rc] eqn:Er; [discriminate|].
    destruct (lex3_lt (rkey (snd r)) (rkey (ureq v'))) eqn:El; inversion Ev; subst. apply lex3_lt_spec in El.
    destruct (rev_last _ Er) as [Hc Hrl]. rewrite Hrl. split; [|auto]. repeat split; auto.
    + rewrite Hc. apply in_or_app. right. left. auto.
    + (* the victim is the last user of a sorted list *)
      rewrite Hc in Hs |- *. apply StronglySorted_app in Hs as (_ & _ & Hx). apply Forall_app. split.
      * apply Forall_forall. intros u Hu. exact (Hx u v Hu (or_introl eq_refl)).
      * constructor; [apply lex3_le_refl|constructor].
  - destruct (Nat.ltb_spec (length c) cap); inversion H; subst. auto.
Qed.

Lemma remove_user_incl : forall rid c, incl (remove_user rid c) c.
Proof.
  induction c as [|u c IH]; simpl; [apply incl_refl|].
  destruct (Nat.eqb (uid u) rid); [apply incl_tl, incl_refl|exact (incl_cons (in_eq u c) (incl_tl u IH))].
Qed.

Lemma remove_user_sorted : forall rid c, StronglySorted user_leP c -> StronglySorted user_leP (remove_user rid c).
Proof.
  induction 1 as [|u c S IH F]; simpl; [constructor|].
  destruct (Nat.eqb (uid u) rid); [exact S|]. constructor; [exact IH|exact (incl_Forall (remove_user_incl rid c) F)].
Qed.

Lemma remove_user_count : forall rid c,
    length (remove_user rid c) =
    (length c - (if existsb (fun u => Nat.eqb (uid u) rid) c then 1 else 0))%nat.
Proof.
  induction c as [|u c IH]; simpl; auto.
  destruct (Nat.eqb (uid u) rid); simpl; [lia|]. rewrite IH.
  destruct (existsb _ c) eqn:E; [|lia].
  apply existsb_exists in E. destruct E as (x & Hx & _). destruct c; [destruct Hx|simpl; lia].
Qed.

Lemma remove_user_others : forall rid c u, uid u <> rid -> (In u (remove_user rid c) <-> In u c).
Proof.
  induction c as [|a c IH]; simpl; intros u Hu; [tauto|].
  destruct (Nat.eqb_spec (uid a) rid).
  - split; auto. intros [->|H]; auto. congruence.
  - simpl. rewrite IH; auto. tauto.
Qed.

Lemma remove_user_length : forall rid c, (length (remove_user rid c) <= length c)%nat.
Proof. intros rid c. rewrite remove_user_count. apply Nat.le_sub_l. Qed.

Section ResourceProps.
  Variable k : rkind.
  Variable cap : nat.

  Definition res_inv (c : list user) : Prop :=
    (length c <= cap)%nat /\ (k = RPreemptive -> StronglySorted user_leP c).

  Lemma res_put_inv : forall t c r c' n, res_inv c -> do_put (res_mach k cap) t c r = Some (c', n) ->
      res_inv c' /\
      Permutation (match n with Some v => remove1 Nat.eqb (uid v) (map uid c) | None => map uid c end ++ [fst r])
                  (map uid c').
  Proof.
    intros t c r c' n [Hl Hs] H.
    assert (Hins : forall c0, Permutation (map uid c0 ++ [fst r]) (map uid (sinsert user_le (r, t) c0))).
    { intros c0. apply (perm_trans (Permutation_sym (Permutation_cons_append _ _))).
      exact (Permutation_map uid (sinsert_perm user_le (r, t) c0)). }
    unfold res_inv. destruct k; simpl in H.
    1, 2: destruct (res_put_spec _ _ _ _ H) as (Hlt & -> & ->);
      (split; [split; [rewrite app_length; simpl; lia|discriminate]|rewrite map_app; apply Permutation_refl]).
    specialize (Hs eq_refl). pose proof (@pre_put_spec cap t c r c' n Hs H) as Hp. destruct n as [v|].
    - destruct Hp as (_ & Hc & ->). rewrite Hc in Hs, Hl. rewrite app_length in Hl. simpl in Hl.
      apply StronglySorted_app in Hs as [Hs _]. split.
      + split; [rewrite sinsert_length; lia|intros _; exact (sinsert_user_sorted _ Hs)].
      + refine (perm_trans (Permutation_app_tail _ _) (Hins _)).
        (* the users without the victim, which was the last of them *)
        rewrite Hc at 1. rewrite map_app. apply Permutation_cons_inv with (a := uid v).
        refine (perm_trans (Permutation_sym (remove1_in _ Nat.eqb_eq _ _ _))
                           (Permutation_sym (Permutation_cons_append _ _))).
        apply in_or_app. right. left. reflexivity.
    - destruct Hp as (Hlt & ->). split; [|exact (Hins c)].
      split; [rewrite sinsert_length; lia|intros _; exact (sinsert_user_sorted _ Hs)].
  Qed.

  Lemma res_get_inv : forall t c r c' n, res_inv c -> do_get (res_mach k cap) t c r = Some (c', n) ->
      res_inv c' /\ c' = remove_user (snd r) c /\ n = None.
  Proof.
    intros t c r c' n [Hl Hs] H.
    assert (H' : res_get c r = Some (c', n)) by (destruct k; exact H).
    unfold res_get in H'. injection H' as <- <-. split; [|auto]. split.
    - pose proof (remove_user_length (snd r) c). lia.
    - intros Hk. exact (remove_user_sorted _ (Hs Hk)).
  Qed.

  (* the users are exactly the requests that were granted and neither released nor evicted since; all three
     resource types *)
  Theorem resource_capacity : forall h s tr,
      run (res_mach k cap) (init []) h = (s, tr) ->
      (length (content s) <= cap)%nat /\ Permutation (holders tr) (map uid (content s)).
  Proof.
    intros h s tr H.
    assert (HR : res_inv (content s) /\ Permutation (holders tr) (map uid (content s))).
    { apply (@R_run _ _ _ _ (res_mach k cap) (@res_mach_ins_in k cap)
               (fun c tr => res_inv c /\ Permutation (holders tr) (map uid c))) with (c0 := []) (h := h); auto.
      - intros t c tr0 id p c' n _ (Hi & Hp) Hd.
        destruct (@res_put_inv t c (id, p) c' n Hi Hd) as (Hi' & Hp'). split; auto.
        unfold holders in *. rewrite fold_left_app. simpl.
        refine (perm_trans _ Hp'). destruct n as [v|]; apply Permutation_app_tail;
          [exact (remove1_perm _ Nat.eqb_eq _ Hp)|exact Hp].
      - intros t c tr0 id g c' n _ (Hi & Hp) Hd.
        destruct (@res_get_inv t c (id, g) c' n Hi Hd) as (Hi' & -> & ->). split; auto.
        unfold holders in *. rewrite fold_left_app. simpl. rewrite remove_user_map.
        exact (remove1_perm _ Nat.eqb_eq _ Hp).
      - split; [split; [simpl; lia|intros; constructor]|constructor]. }
    destruct HR as [[Hl _] Hp]. auto.
  Qed.

  (* every eviction in any history: by a preempting request with a STRICTLY better key, only when all
     slots are taken, and the victim is the worst user at that moment *)
  Definition eviction_justified (e : rev_) : Prop :=
    match e with
    | EPut id p (Some v) => k = RPreemptive /\ exists users, evict_ok cap users p v
    | _ => True
    end.

  Theorem preempt_strictly_better : forall h s tr,
      run (res_mach k cap) (init []) h = (s, tr) -> Forall eviction_justified tr.
  Proof.
    intros h s tr H.
    destruct (@inv_run _ _ _ _ (res_mach k cap) (@res_mach_ins_in k cap) res_inv)
      with (c0 := @nil user) (h := h) (s := s) (outs := tr) as [_ Hj]; auto.
    - intros t c r c' n _ Hi Hd. exact (proj1 (res_put_inv _ _ Hi Hd)).
    - intros t c r c' n _ Hi Hd. exact (proj1 (res_get_inv _ _ Hi Hd)).
    - split; [simpl; lia|intros; constructor].
    - apply (Forall_impl _ (P := justified (res_mach k cap) res_inv)); [|exact Hj].
      intros [id p [v|]|id g n]; simpl; auto.
      intros (t & c & c' & [Hl Hs] & Hd). destruct k; simpl in Hd.
      1, 2: destruct (res_put_spec _ _ _ _ Hd) as (_ & _ & [=]).
      split; auto. exists c. apply (@pre_put_spec cap t c (id, p) c' (Some v) (Hs eq_refl) Hd).
  Qed.
End ResourceProps.

Definition fifo_mach {C P G N} (M : mach C P G N) : Prop := forall r q, ins M r q = q ++ [r].
Definition prio_mach {C G N} (M : mach C req G N) : Prop := forall r q, ins M r q = sinsert rq_le r q.

(* (priority, time, not preempt), then request order *)
Definition rq_lt (a b : nat * req) : Prop :=
  klt (rkey (snd a)) (rkey (snd b)) \/ (rkey (snd a) = rkey (snd b) /\ (fst a < fst b)%nat).

Lemma prio_ins_sorted : forall n r q,
    (n <= fst r)%nat -> Forall (fun x : nat * req => (fst x < n)%nat) q -> StronglySorted rq_lt q ->
    StronglySorted rq_lt (sinsert rq_le r q).
Proof.
  intros n r q Hn Hb. apply sinsert_sorted_by; unfold rq_le, rq_lt.
  - (* equal keys: the queued request has the smaller id *)
    intros y Hy E. apply lex3_le_spec in E.
    destruct (klt_cases (rkey (snd y)) (rkey (snd r))) as [H|[H|H]]; [left; exact H| |destruct (E H)].
    right. split; [exact H|]. exact (Nat.lt_le_trans _ _ _ (proj1 (Forall_forall _ _) Hb y Hy) Hn).
  - intros y _ E. apply negb_false_iff, lex3_lt_spec in E. split; [left; exact E|].
    intros z [Hz|[Hz _]]; left; [exact (klt_trans _ _ _ E Hz)|rewrite <- Hz; exact E].
Qed.

Definition well_behaved {C P G N} (M : mach C P G N) : Prop :=
  (forall t t' c r, is_some (do_put M t c r) = is_some (do_put M t' c r)) /\
  (forall t t' c r, is_some (do_get M t c r) = is_some (do_get M t' c r)) /\
  (get_all M = true ->
   forall t c r c1 n r', do_get M t c r = Some (c1, n) -> do_get M t c r' = None -> do_get M t c1 r' = None).

Lemma wb_container : forall cap, well_behaved (container cap).
Proof. intros cap. repeat split; simpl; auto; discriminate. Qed.
Lemma wb_store : forall cap, well_behaved (store cap).
Proof. intros cap. repeat split; simpl; auto; discriminate. Qed.
Lemma wb_prioritystore : forall cap, well_behaved (prioritystore cap).
Proof. intros cap. repeat split; simpl; auto; discriminate. Qed.
Lemma wb_filterstore : forall cap, well_behaved (filterstore cap).
Proof.
  intros cap. split; [|split]; simpl; auto. intros _ t c r c1 n r'. apply (@filterstore_get_mono cap t c r c1 n r').
Qed.
Lemma wb_res : forall k cap, well_behaved (res_mach k cap).
Proof.
  intros k cap. split; [|split].
  - (* the time only enters usage_since of the new user *)
    intros t t' c r. destruct k; simpl; unfold res_put, pre_put; destruct (_ <? cap)%nat; reflexivity.
  - intros t t' c r. destruct k; reflexivity.
  - destruct k; discriminate.
Qed.

Theorem grantable_head_granted : forall C P G N (M : mach C P G N), well_behaved M ->
    (* a new request / the callbacks of a granted opposite request serve the queue: afterwards
       its head is not grantable -- from ANY state, e.g. after cancels *)
    (forall s o s' outs, step M s o = (s', outs) -> triggers_put M s o = true -> grantable_put M s' = false) /\
    (forall s o s' outs, step M s o = (s', outs) -> triggers_get M s o = true -> grantable_get M s' = false) /\
    (* no operation other than cancel leaves a grantable head without a pending callback that serves it *)
    (forall s o s' outs, step M s o = (s', outs) -> is_cancel o = false ->
                         Jput M s /\ Jget M s -> Jput M s' /\ Jget M s') /\
    (* so at the end of a time step (all callbacks processed) of a cancel-free history no head is grantable *)
    (forall c0 h s outs, run M (init c0) h = (s, outs) -> cancel_free h -> pend s = [] ->
                         grantable_put M s = false /\ grantable_get M s = false).
Proof.
  intros C P G N M (H1 & H2 & H3). split; [|split; [|split]].
  - exact (@step_establishes_Jput _ _ _ _ M).
  - exact (@step_establishes_Jget _ _ _ _ M H3).
  - exact (@step_keeps_J _ _ _ _ M H1 H2 H3).
  - exact (@quiescent_no_grantable_head _ _ _ _ M H1 H2 H3).
Qed.

Lemma res_get_all : forall k cap, get_all (res_mach k cap) = false.
Proof. destruct k; auto. Qed.

Lemma res_trigger_put_getq : forall k cap s, getq (fst (trigger_put (res_mach k cap) s)) = getq s.
Proof.
  intros. destruct (trigger_put (res_mach k cap) s) as [s' o] eqn:E.
  destruct (trigger_put_spec _ _ E) as (c & gs & rest & _ & -> & _). reflexivity.
Qed.

Lemma res_trigger_get_nil : forall k cap s, getq s = [] -> getq (fst (trigger_get (res_mach k cap) s)) = [].
Proof.
  intros k cap s H. unfold trigger_get. rewrite res_get_all, H. reflexivity.
Qed.

Theorem release_exact : forall k cap s id rid, getq s = [] ->
    step (res_mach k cap) s (OGet id rid) =
    (St (now s) (remove_user rid (content s)) (putq s) [] (pend s ++ [(id, false)]), [EGet id rid None]).
Proof.
  intros k cap s id rid H. destruct k; simpl; unfold trigger_get; simpl; rewrite H; reflexivity.
Qed.

Lemma res_step_getq : forall k cap s o, getq s = [] -> getq (fst (step (res_mach k cap) s o)) = [].
Proof.
  intros k cap s o H. destruct o as [t|id p|id g|id|id].
  - exact H.
  - simpl. replace (okp (res_mach k cap) p) with true by (destruct k; reflexivity).
    rewrite res_trigger_put_getq. exact H.
  - rewrite (release_exact k cap s id g H). reflexivity.
  - simpl. rewrite H. reflexivity.
  - simpl. destruct (take_pend id (pend s)) as [[[|] l]|]; [|rewrite res_trigger_put_getq|]; try exact H.
    apply res_trigger_get_nil. exact H.
Qed.

(* a release is always granted at once *)
Theorem res_getq_empty : forall k cap h s, getq s = [] -> getq (fst (run (res_mach k cap) s h)) = [].
Proof.
  induction h as [|o h IH]; simpl; intros s H; auto.
  pose proof (res_step_getq k cap s o H) as H1. destruct (step (res_mach k cap) s o) as [s1 e1].
  specialize (IH s1 H1). destruct (run (res_mach k cap) s1 h) as [s2 e2]. auto.
Qed.

Theorem cancel_release_give_back : forall k cap h s tr,
    run (res_mach k cap) (init []) h = (s, tr) ->
    (* release of request rid: granted at once, frees exactly the slot of rid if it holds one and nothing
       otherwise (idempotent), touches nobody else and no queue *)
    (forall id rid, exists s',
        step (res_mach k cap) s (OGet id rid) = (s', [EGet id rid None]) /\
        content s' = remove_user rid (content s) /\ putq s' = putq s /\ getq s' = [] /\
        length (content s') =
          (length (content s) - (if existsb (fun u => Nat.eqb (uid u) rid) (content s) then 1 else 0))%nat /\
        (forall u, uid u <> rid -> (In u (content s') <-> In u (content s)))) /\
    (* cancel: only the place in the queue is given back *)
    (forall id, step (res_mach k cap) s (OCancel id) =
                (St (now s) (content s) (remove_id id (putq s)) (remove_id id (getq s)) (pend s), [])).
Proof.
  intros k cap h s tr H. split; [|intros; reflexivity].
  intros id rid. pose proof (res_getq_empty k cap h (init []) eq_refl) as Hq. rewrite H in Hq. simpl in Hq.
  eexists. split; [exact (release_exact k cap s id rid Hq)|]. simpl.
  split; [reflexivity|]. split; [reflexivity|]. split; [reflexivity|].
  split; [apply remove_user_count|apply remove_user_others].
Qed.

Lemma preempt_complete : forall cap t c r v rc,
    length c = cap -> preempt (snd r) = true -> rev c = v :: rc -> klt (rkey (snd r)) (rkey (ureq v)) ->
    exists c', pre_put cap t c r = Some (c', Some v).
Proof.
  intros cap t c r v rc Hl Hp Hr Hk. unfold pre_put, preempt_victim.
  assert (E : (cap <=? length c)%nat = true) by (apply Nat.leb_le; lia).
  apply lex3_lt_spec in Hk. rewrite E, Hp, Hr. cbn [andb]. rewrite Hk. cbv zeta beta iota.
  destruct (rev_last _ Hr) as [Hc Hrl].
  assert (E2 : (length (removelast c) <? cap)%nat = true).
  { apply Nat.ltb_lt. rewrite Hrl. rewrite Hc, app_length in Hl. simpl in Hl. lia. }
  rewrite E2. eauto.
Qed.

(* FilterStore: the trace is one of the specification; and after anything that serves the get queue no waiting
   request accepts any stored item: a request that matches nothing does not block later ones *)
Theorem filterstore_first_match_nonblocking : forall cap,
    (forall h s tr, run (filterstore cap) (init []) h = (s, tr) ->
                    fs_spec [] tr (content s) /\ (length (content s) <= cap)%nat) /\
    (forall s o s' outs,
        step (filterstore cap) s o = (s', outs) -> triggers_get (filterstore cap) s o = true ->
        forall r x, In r (getq s') -> In x (content s') -> accepts (snd r) x = false).
Proof.
  intros cap. split.
  - intros h s tr H. pattern (content s), tr.
    refine (@R_run _ _ _ _ (filterstore cap) (@append_in _) _ _ _ [] h s tr _ H); cbn beta.
    + simpl. intros t c tr0 id p c' n _ (Hs & Hl) Hd.
      destruct (Nat.ltb_spec (length c) cap); inversion Hd; subst. split.
      * apply (fs_spec_app Hs). repeat constructor.
      * rewrite app_length. simpl. lia.
    + simpl. intros t c tr0 id g c' n _ (Hs & Hl) Hd.
      destruct (first_match (accepts g) c) as [[x r]|] eqn:E; inversion Hd; subst.
      apply first_match_spec in E. destruct E as (l1 & l2 & -> & Hf & Hx & ->). split.
      * apply (fs_spec_app Hs). constructor; auto. constructor.
      * rewrite app_length in *. simpl in Hl. lia.
    + split; [constructor|simpl; lia].
  - intros s o s' outs H Ht r x Hr Hx.
    destruct (wb_filterstore cap) as (_ & _ & H3).
    pose proof (@step_establishes_Jget _ _ _ _ _ H3 _ _ _ _ H Ht) as Hg.
    destruct (first_match (accepts (snd r)) (content s')) as [[y l]|] eqn:E.
    + assert (Hg' : grantable_get (filterstore cap) s' = true); [|congruence].
      apply existsb_exists. exists r. split; [exact Hr|]. simpl. rewrite E. reflexivity.
    + exact (proj1 (Forall_forall _ _) (proj1 (first_match_none _ _) E) x Hx).
Qed.

Definition all_fifo_or_prio : Prop :=
  (forall cap, fifo_mach (container cap)) /\ (forall cap, fifo_mach (store cap)) /\
  (forall cap, fifo_mach (prioritystore cap)) /\ (forall cap, fifo_mach (filterstore cap)) /\
  (forall cap, fifo_mach (resource cap)) /\
  (forall cap, prio_mach (priorityresource cap)) /\ (forall cap, prio_mach (preemptiveresource cap)).

Theorem grant_policy_order :
    (forall C P G N (M : mach C P G N), fifo_mach M ->
     forall c0 h o s outs0 s' outs,
       incr 0 (h ++ [o]) -> run M (init c0) h = (s, outs0) -> step M s o = (s', outs) ->
       granted_then_waiting M (@idlt P) s' outs) /\
    (forall C G N (M : mach C req G N), prio_mach M ->
     forall c0 h o s outs0 s' outs,
       incr 0 (h ++ [o]) -> run M (init c0) h = (s, outs0) -> step M s o = (s', outs) ->
       granted_then_waiting M rq_lt s' outs) /\
    all_fifo_or_prio.
Proof.
  split; [|split].
  - intros C P G N M Hm c0 h o s outs0 s' outs. apply grant_order.
    + intros n r q Hn Hb Hs. rewrite Hm. exact (sorted_snoc r Hs Hb Hn).
    + intros r q x Hx. rewrite Hm in Hx. exact (append_in _ _ _ Hx).
  - intros C G N M Hm c0 h o s outs0 s' outs. apply grant_order.
    + intros n r q Hn Hb Hs. rewrite Hm. exact (prio_ins_sorted r Hn Hb Hs).
    + intros r q x Hx. rewrite Hm in Hx. exact (sinsert_in _ _ _ _ Hx).
  - unfold all_fifo_or_prio, fifo_mach, prio_mach. repeat split; reflexivity.
Qed.

Definition all_well_behaved : Prop :=
  (forall cap, well_behaved (container cap)) /\ (forall cap, well_behaved (store cap)) /\
  (forall cap, well_behaved (prioritystore cap)) /\ (forall cap, well_behaved (filterstore cap)) /\
  (forall k cap, well_behaved (res_mach k cap)).

Theorem every_resource_well_behaved : all_well_behaved.
Proof. exact (conj wb_container (conj wb_store (conj wb_prioritystore (conj wb_filterstore wb_res)))). Qed.
