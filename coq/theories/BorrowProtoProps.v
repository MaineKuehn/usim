(* Proofs about BorrowProto: for ALL operation sequences of the nondeterministic environment:
   any number of blocks, amounts, nesting depths, interleavings, signals/closes at any
   suspension point (also repeated), concurrent increase/decrease/set.
   [step] is covered by a relation [trans] whose twelve cases name the level moves (step_trans); each part of
   [INV] is kept by [trans]; the theorems that props/C12.v cites read their statements off [INV]. *)
Require Import ZArith List Bool Lia.
Import ListNotations.
From Usim Require Import ListFacts Levels BorrowProto.
Open Scope Z_scope.

Lemma updn_length : forall (A : Type) i (f : A -> A) l, length (updn i f l) = length l.
Proof. intros A i f l. revert i. induction l; destruct i; simpl; auto. Qed.

Lemma nth_error_updn : forall (A : Type) i j (f : A -> A) l,
  nth_error (updn i f l) j =
  if (j =? i)%nat then option_map f (nth_error l j) else nth_error l j.
Proof.
  intros A i j f l. revert i j. induction l; intros; simpl.
  - destruct j, i; simpl; try reflexivity; destruct (j =? i)%nat; reflexivity.
  - destruct i, j; simpl; auto.
Qed.

Lemma nth_updn : forall (A : Type) i j (f : A -> A) l d, (i < length l)%nat ->
  nth j (updn i f l) d = if (j =? i)%nat then f (nth j l d) else nth j l d.
Proof.
  intros A i j f l d. revert i j. induction l; intros; simpl in *; [lia|].
  destruct i, j; simpl; auto. apply IHl. lia.
Qed.

Lemma nth_updn_ne : forall (A : Type) i j (f : A -> A) l d, j <> i ->
  nth j (updn i f l) d = nth j l d.
Proof.
  intros A i j f l d. revert i j. induction l; intros; destruct i, j; simpl; auto; congruence.
Qed.

Lemma nth_error_snoc_if : forall (A : Type) (l : list A) x j,
  nth_error (l ++ [x]) j =
  if (j <? length l)%nat then nth_error l j else if (j =? length l)%nat then Some x else None.
Proof.
  induction l; intros; simpl.
  - destruct j; simpl; auto. destruct j; auto.
  - destruct j; simpl; auto. rewrite IHl.
    change (S j <? S (length l))%nat with (j <? length l)%nat. reflexivity.
Qed.

Lemma nth_snoc_default : forall (A : Type) (l : list A) d j, nth j (l ++ [d]) d = nth j l d.
Proof.
  intros. destruct (Nat.lt_ge_cases j (length l)); [apply app_nth1; auto|].
  rewrite app_nth2, (nth_overflow l) by auto. destruct (j - length l)%nat as [|[|m]]; reflexivity.
Qed.

Lemma nth_snoc_old : forall (A : Type) (l : list A) x j d, (j < length l)%nat ->
  nth j (l ++ [x]) d = nth j l d.
Proof. intros. apply app_nth1. auto. Qed.

Lemma osum_app : forall q k a b, osum q k (a ++ b) = osum q k a + osum q k b.
Proof. induction a; simpl; intros; auto. rewrite IHa. lia. Qed.

Lemma gsum_app : forall q k a b, gsum q k (a ++ b) = gsum q k a + gsum q k b.
Proof. induction a; simpl; intros; auto. rewrite IHa. lia. Qed.

Lemma osum_updn : forall q k i f bl b, nth_error bl i = Some b ->
  osum q k (updn i f bl) = osum q k bl + (outb q k (f b) - outb q k b).
Proof.
  intros q k i f bl. revert i. induction bl; intros; destruct i; simpl in *; try discriminate.
  - inversion H; subst. lia.
  - rewrite (IHbl _ _ H). lia.
Qed.

Lemma gsum_zero : forall q k gl, (forall q' d, In (GbPar q' d) gl -> q' <> q) -> gsum q k gl = 0.
Proof.
  induction gl; simpl; intros; auto. rewrite IHgl by (intros; eapply H; eauto).
  destruct a; simpl; auto. destruct (Nat.eqb_spec q0 q); auto. exfalso. eapply H; eauto.
Qed.

Lemma osum_zero : forall q k bl,
  (forall j c, nth_error bl j = Some c -> bpar c = q -> held (bph c) = false) -> osum q k bl = 0.
Proof.
  induction bl; simpl; intros; auto.
  rewrite IHbl by (intros j c Hc; apply (H (S j) c Hc)).
  unfold outb. destruct (Nat.eqb_spec (bpar a) q); simpl; auto.
  rewrite (H 0%nat a eq_refl e). reflexivity.
Qed.

Lemma psum_le : forall (f g : phase -> bool) q k bl,
  (forall p, f p = true -> g p = true) -> (forall b, In b bl -> 0 <= get k (bdeb b)) ->
  psum f q k bl <= psum g q k bl.
Proof.
  induction bl; simpl; intros; [lia|].
  specialize (IHbl H (fun b Hin => H0 b (or_intror Hin))). specialize (H0 a (or_introl eq_refl)).
  destruct (bpar a =? q)%nat; simpl; try lia.
  destruct (f (bph a)) eqn:F; [rewrite (H _ F); lia|]. destruct (g (bph a)); lia.
Qed.

Lemma osum_psum : forall q k bl, osum q k bl = psum held q k bl.
Proof. induction bl; simpl; auto. unfold outb. rewrite IHbl. reflexivity. Qed.

Lemma psum_false : forall q k bl, psum (fun _ => false) q k bl = 0.
Proof. induction bl; simpl; auto. rewrite andb_false_r. auto. Qed.

(* Tracked.set's marking touches nothing but [bwok] *)
Lemma bpar_mark : forall n q v b, bpar (mark n q v b) = bpar b.
Proof. intros. unfold mark. destruct (_ && _); auto. Qed.
Lemma bdeb_mark : forall n q v b, bdeb (mark n q v b) = bdeb b.
Proof. intros. unfold mark. destruct (_ && _); auto. Qed.
Lemma bclaim_mark : forall n q v b, bclaim (mark n q v b) = bclaim b.
Proof. intros. unfold mark. destruct (_ && _); auto. Qed.
Lemma bph_mark : forall n q v b, bph (mark n q v b) = bph b.
Proof. intros. unfold mark. destruct (_ && _); auto. Qed.

Lemma osum_map_mark : forall q k n q' v bl, osum q k (map (mark n q' v) bl) = osum q k bl.
Proof.
  induction bl; simpl; auto. unfold outb at 1. rewrite bpar_mark, bph_mark, bdeb_mark, IHbl. reflexivity.
Qed.

Definition blk (s : state) (i : nat) : option block := nth_error (blocks s) i.
Definition phs (s : state) (i : nat) : option phase := option_map bph (blk s i).
Definition pars (s : state) (i : nat) : option nat := option_map bpar (blk s i).
Definition debs (s : state) (i : nat) : levels :=
  match blk s i with Some b => bdeb b | None => [] end.

Lemma blk_acc : forall s i b, blk s i = Some b ->
  phs s i = Some (bph b) /\ pars s i = Some (bpar b) /\ debs s i = bdeb b.
Proof. intros. unfold phs, pars, debs. rewrite H. auto. Qed.

Lemma blk_lt : forall s i b, blk s i = Some b -> (i < length (blocks s))%nat.
Proof. intros. apply nth_error_Some. unfold blk in H. congruence. Qed.

Lemma blk_none : forall s j, (length (blocks s) <= j)%nat -> blk s j = None.
Proof. intros. apply nth_error_None. auto. Qed.

Lemma phs_some : forall s i p, phs s i = Some p -> exists b, blk s i = Some b /\ bph b = p.
Proof. unfold phs. intros. destruct (blk s i) as [b|]; inversion H. eauto. Qed.

Lemma phs_defined : forall s j, (exists p, phs s j = Some p) <-> (j < length (blocks s))%nat.
Proof.
  intros. unfold phs, blk. rewrite <- nth_error_Some. destruct (nth_error (blocks s) j); simpl; split;
    intros; eauto; try discriminate; try congruence. destruct H; discriminate.
Qed.

Lemma blk_setph : forall s i p j,
  blk (setph i p s) j = if (j =? i)%nat then option_map (set_ph p) (blk s j) else blk s j.
Proof. intros. unfold blk, setph. simpl. apply nth_error_updn. Qed.

Lemma blk_setpool : forall s q v j,
  blk (setpool q v s) j = option_map (mark (nkeys s) q v) (blk s j).
Proof. intros. unfold blk, setpool. simpl. apply nth_error_map. Qed.

Lemma blk_chins : forall s q d j, blk (chins q d s) j = blk s j.
Proof. reflexivity. Qed.
Lemma blk_push : forall s g j, blk (push g s) j = blk s j.
Proof. reflexivity. Qed.
Lemma blk_pop : forall s j, blk (pop s) j = blk s j.
Proof. reflexivity. Qed.

Lemma blk_after_setpool_setph : forall s i p q v j b',
  blk (setpool q v (setph i p s)) j = Some b' ->
  exists b, blk s j = Some b /\
    b' = mark (nkeys s) q v (if (j =? i)%nat then set_ph p b else b).
Proof.
  intros. rewrite blk_setpool, blk_setph in H.
  destruct (j =? i)%nat; destruct (blk s j) as [b|]; simpl in H; inversion H; eauto.
Qed.

Lemma phs_setph : forall s i p j,
  phs (setph i p s) j = if (j =? i)%nat then option_map (fun _ => p) (phs s j) else phs s j.
Proof.
  intros. unfold phs. rewrite blk_setph. destruct (j =? i)%nat; auto.
  destruct (blk s j); reflexivity.
Qed.
Lemma phs_setpool : forall s q v j, phs (setpool q v s) j = phs s j.
Proof.
  intros. unfold phs. rewrite blk_setpool. destruct (blk s j); simpl; auto.
  rewrite bph_mark. reflexivity.
Qed.
Lemma pars_setph : forall s i p j, pars (setph i p s) j = pars s j.
Proof.
  intros. unfold pars. rewrite blk_setph. destruct (j =? i)%nat; auto.
  destruct (blk s j); reflexivity.
Qed.
Lemma pars_setpool : forall s q v j, pars (setpool q v s) j = pars s j.
Proof.
  intros. unfold pars. rewrite blk_setpool. destruct (blk s j); simpl; auto.
  rewrite bpar_mark. reflexivity.
Qed.
Lemma debs_setph : forall s i p j, debs (setph i p s) j = debs s j.
Proof.
  intros. unfold debs. rewrite blk_setph. destruct (j =? i)%nat; auto.
  destruct (blk s j); reflexivity.
Qed.
Lemma debs_setpool : forall s q v j, debs (setpool q v s) j = debs s j.
Proof.
  intros. unfold debs. rewrite blk_setpool. destruct (blk s j); simpl; auto.
  rewrite bdeb_mark. reflexivity.
Qed.

Lemma pool_setpool : forall s q v q', (q < length (pools s))%nat ->
  pool q' (setpool q v s) = if (q' =? q)%nat then v else pool q' s.
Proof. intros. unfold pool, setpool. simpl. rewrite nth_updn; auto. Qed.

Lemma insq_chins : forall s q d q', (q < length (ins s))%nat ->
  insq q' (chins q d s) = if (q' =? q)%nat then ladd (insq q' s) d else insq q' s.
Proof. intros. unfold insq, chins. simpl. rewrite nth_updn; auto. Qed.

Lemma insq_chins_ne : forall s q d q', q' <> q -> insq q' (chins q d s) = insq q' s.
Proof. intros. unfold insq, chins. simpl. apply nth_updn_ne. auto. Qed.

Lemma out_setph : forall s i p b q k, blk s i = Some b ->
  outstanding q k (setph i p s) = outstanding q k s +
  (if (bpar b =? q)%nat
   then (if held p then get k (bdeb b) else 0) - (if held (bph b) then get k (bdeb b) else 0) else 0).
Proof.
  intros. unfold outstanding, setph. simpl. rewrite (osum_updn q k i _ _ b H). unfold outb. simpl.
  destruct (bpar b =? q)%nat; simpl; lia.
Qed.

Lemma out_setpool : forall s q' v q k, outstanding q k (setpool q' v s) = outstanding q k s.
Proof. intros. unfold outstanding, setpool. simpl. rewrite osum_map_mark. reflexivity. Qed.

Lemma out_push : forall s gs q k, outstanding q k (push gs s) = outstanding q k s + gsum q k gs.
Proof. intros. unfold outstanding, push. simpl. rewrite gsum_app. lia. Qed.

Lemma out_pop : forall s g r q k, gbq s = g :: r ->
  outstanding q k (pop s) = outstanding q k s - outg q k g.
Proof. intros. unfold outstanding, pop. simpl. rewrite H. simpl. lia. Qed.

Lemma pool_setph : forall s i p q, pool q (setph i p s) = pool q s. Proof. reflexivity. Qed.
Lemma pool_chins : forall s q' d q, pool q (chins q' d s) = pool q s. Proof. reflexivity. Qed.
Lemma pool_push : forall s g q, pool q (push g s) = pool q s. Proof. reflexivity. Qed.
Lemma pool_pop : forall s q, pool q (pop s) = pool q s. Proof. reflexivity. Qed.
Lemma insq_setph : forall s i p q, insq q (setph i p s) = insq q s. Proof. reflexivity. Qed.
Lemma insq_setpool : forall s q' v q, insq q (setpool q' v s) = insq q s. Proof. reflexivity. Qed.
Lemma insq_push : forall s g q, insq q (push g s) = insq q s. Proof. reflexivity. Qed.
Lemma insq_pop : forall s q, insq q (pop s) = insq q s. Proof. reflexivity. Qed.
Lemma out_chins : forall s q' d q k, outstanding q k (chins q' d s) = outstanding q k s.
Proof. reflexivity. Qed.
Lemma len_pools_setph : forall s i p, length (pools (setph i p s)) = length (pools s).
Proof. reflexivity. Qed.
Lemma len_pools_setpool : forall s q v, length (pools (setpool q v s)) = length (pools s).
Proof. intros. simpl. apply updn_length. Qed.
Lemma len_pools_pop : forall s, length (pools (pop s)) = length (pools s). Proof. reflexivity. Qed.
Lemma len_ins_setph : forall s i p, length (ins (setph i p s)) = length (ins s).
Proof. reflexivity. Qed.
Lemma len_ins_setpool : forall s q v, length (ins (setpool q v s)) = length (ins s).
Proof. reflexivity. Qed.
Lemma len_ins_pop : forall s, length (ins (pop s)) = length (ins s). Proof. reflexivity. Qed.
Lemma phs_chins : forall s q d j, phs (chins q d s) j = phs s j. Proof. reflexivity. Qed.
Lemma phs_push : forall s g j, phs (push g s) j = phs s j. Proof. reflexivity. Qed.
Lemma phs_pop : forall s j, phs (pop s) j = phs s j. Proof. reflexivity. Qed.
Lemma pars_chins : forall s q d j, pars (chins q d s) j = pars s j. Proof. reflexivity. Qed.
Lemma pars_push : forall s g j, pars (push g s) j = pars s j. Proof. reflexivity. Qed.
Lemma pars_pop : forall s j, pars (pop s) j = pars s j. Proof. reflexivity. Qed.
Lemma debs_chins : forall s q d j, debs (chins q d s) j = debs s j. Proof. reflexivity. Qed.
Lemma debs_push : forall s g j, debs (push g s) j = debs s j. Proof. reflexivity. Qed.
Lemma debs_pop : forall s j, debs (pop s) j = debs s j. Proof. reflexivity. Qed.
Lemma gbq_setph : forall s i p, gbq (setph i p s) = gbq s. Proof. reflexivity. Qed.
Lemma gbq_setpool : forall s q v, gbq (setpool q v s) = gbq s. Proof. reflexivity. Qed.
Lemma gbq_chins : forall s q d, gbq (chins q d s) = gbq s. Proof. reflexivity. Qed.
Lemma gbq_push : forall s g, gbq (push g s) = gbq s ++ g. Proof. reflexivity. Qed.
Lemma gbq_pop : forall s, gbq (pop s) = tl (gbq s). Proof. reflexivity. Qed.
Lemma nkeys_setph : forall s i p, nkeys (setph i p s) = nkeys s. Proof. reflexivity. Qed.
Lemma nkeys_setpool : forall s q v, nkeys (setpool q v s) = nkeys s. Proof. reflexivity. Qed.
Lemma nkeys_chins : forall s q d, nkeys (chins q d s) = nkeys s. Proof. reflexivity. Qed.
Lemma nkeys_push : forall s g, nkeys (push g s) = nkeys s. Proof. reflexivity. Qed.
Lemma nkeys_pop : forall s, nkeys (pop s) = nkeys s. Proof. reflexivity. Qed.

(* [lv]: levels and what is outstanding; [bk]: the block table and the queue *)
#[local] Hint Rewrite pool_setph pool_chins pool_push pool_pop insq_setph insq_setpool insq_push insq_pop
  out_chins out_setpool out_push len_pools_setph len_pools_setpool len_pools_pop
  len_ins_setph len_ins_setpool len_ins_pop : lv.
#[local] Hint Rewrite phs_setph phs_setpool pars_setph pars_setpool debs_setph debs_setpool
  phs_chins phs_push phs_pop pars_chins pars_push pars_pop debs_chins debs_push debs_pop
  gbq_setph gbq_setpool gbq_chins gbq_push gbq_pop
  nkeys_setph nkeys_setpool nkeys_chins nkeys_push nkeys_pop : bk.

Lemma gpool_chpool : forall s q d q' k, (q < length (pools s))%nat ->
  get k (pool q' (chpool q d s)) = get k (pool q' s) + (if (q =? q')%nat then get k d else 0).
Proof.
  intros. unfold chpool. rewrite pool_setpool by auto. rewrite (Nat.eqb_sym q' q).
  destruct (Nat.eqb_spec q q') as [->|]; [rewrite get_ladd|]; lia.
Qed.

Lemma gins_chins : forall s q d q' k, (q < length (ins s))%nat ->
  get k (insq q' (chins q d s)) = get k (insq q' s) + (if (q =? q')%nat then get k d else 0).
Proof.
  intros. rewrite insq_chins by auto. rewrite (Nat.eqb_sym q' q).
  destruct (q =? q')%nat; [rewrite get_ladd|]; lia.
Qed.

(* [d] enters pool [q] and is recorded in its ghost supply: Step in Taking / Holding, the give-back of a
   block's own share, increase / decrease *)
Definition adjust (q : nat) (d : levels) (s : state) : state := chins q d (chpool q d s).

Lemma gpool_adjust : forall s q d q' k, (q < length (pools s))%nat ->
  get k (pool q' (adjust q d s)) = get k (pool q' s) + (if (q =? q')%nat then get k d else 0).
Proof. intros. apply gpool_chpool. auto. Qed.

Lemma gins_adjust : forall s q d q' k, (q < length (ins s))%nat ->
  get k (insq q' (adjust q d s)) = get k (insq q' s) + (if (q =? q')%nat then get k d else 0).
Proof. intros. apply (gins_chins (chpool q d s)). auto. Qed.

(* the state after `pool_q.borrow(d)` / `.claim(d)` created a block *)
Definition newst (s : state) (q : nat) (d : levels) (cl : bool) : state :=
  mkS (nkeys s) (cap s) (pools s ++ [[]]) (ins s ++ [[]])
      (blocks s ++ [mkB q d cl Idle false]) (gbq s).

Lemma blk_newst : forall s q d cl j,
  blk (newst s q d cl) j =
  if (j <? length (blocks s))%nat then blk s j
  else if (j =? length (blocks s))%nat then Some (mkB q d cl Idle false) else None.
Proof. intros. unfold blk, newst. simpl. apply nth_error_snoc_if. Qed.

Lemma phs_newst : forall s q d cl j,
  phs (newst s q d cl) j =
  if (j <? length (blocks s))%nat then phs s j
  else if (j =? length (blocks s))%nat then Some Idle else None.
Proof.
  intros. unfold phs. rewrite blk_newst. destruct (j <? _)%nat; auto. destruct (j =? _)%nat; auto.
Qed.
Lemma pars_newst : forall s q d cl j,
  pars (newst s q d cl) j =
  if (j <? length (blocks s))%nat then pars s j
  else if (j =? length (blocks s))%nat then Some q else None.
Proof.
  intros. unfold pars. rewrite blk_newst. destruct (j <? _)%nat; auto. destruct (j =? _)%nat; auto.
Qed.
Lemma debs_newst : forall s q d cl j,
  debs (newst s q d cl) j =
  if (j <? length (blocks s))%nat then debs s j
  else if (j =? length (blocks s))%nat then d else [].
Proof.
  intros. unfold debs. rewrite blk_newst. destruct (j <? _)%nat; auto. destruct (j =? _)%nat; auto.
Qed.

(* the new share is empty, as is every position beyond the pools *)
Lemma pool_newst : forall s q d cl q', pool q' (newst s q d cl) = pool q' s.
Proof. intros. apply nth_snoc_default. Qed.
Lemma insq_newst : forall s q d cl q', insq q' (newst s q d cl) = insq q' s.
Proof. intros. apply nth_snoc_default. Qed.
Lemma out_newst : forall s q d cl q' k, outstanding q' k (newst s q d cl) = outstanding q' k s.
Proof.
  intros. unfold outstanding, newst. simpl. rewrite osum_app. simpl. unfold outb. simpl.
  rewrite andb_false_r. lia.
Qed.

Definition wf_block (s : state) (i : nat) (b : block) : Prop :=
  (bpar b <= i)%nat /\ (length (bdeb b) <= nkeys s)%nat /\ (forall k, 0 <= get k (bdeb b)).
Definition wf_gb (s : state) (g : gb) : Prop :=
  match g with
  | GbPar q d => (q < length (pools s))%nat /\ (forall k, 0 <= get k d)
  | GbOwn i h => (i < length (blocks s))%nat
  end.
Definition WF (s : state) : Prop :=
  length (pools s) = S (length (blocks s)) /\ length (ins s) = length (pools s) /\
  (forall i b, blk s i = Some b -> wf_block s i b) /\ Forall (wf_gb s) (gbq s).

Lemma wf_blk : forall s i b, WF s -> blk s i = Some b ->
  (S i < length (pools s))%nat /\ (S i < length (ins s))%nat /\ (bpar b <= i)%nat /\
  (length (bdeb b) <= nkeys s)%nat /\ (forall k, 0 <= get k (bdeb b)).
Proof.
  intros s i b (L1 & L2 & B & _) H. pose proof (blk_lt _ _ _ H). destruct (B i b H) as (W1 & W2 & W3).
  repeat split; auto; lia.
Qed.

Lemma pars_lt : forall s j q, WF s -> pars s j = Some q -> (q <= j)%nat /\ (j < length (blocks s))%nat.
Proof.
  intros s j q W H. unfold pars in H. destruct (blk s j) as [c|] eqn:Hc; [|discriminate].
  inversion H; subst. pose proof (blk_lt _ _ _ Hc). destruct (wf_blk _ _ _ W Hc) as (_ & _ & X & _). auto.
Qed.

Lemma wf_queued : forall s g, WF s -> In g (gbq s) -> wf_gb s g.
Proof. intros s g (_ & _ & _ & G). exact (proj1 (Forall_forall _ _) G g). Qed.

Lemma wf_head : forall s g r, WF s -> gbq s = g :: r -> wf_gb s g.
Proof. intros s g r W H. apply (wf_queued s g W). rewrite H. left. reflexivity. Qed.

Lemma wf_deb_nonneg : forall s k, WF s -> forall b, In b (blocks s) -> 0 <= get k (bdeb b).
Proof. intros s k W b Hin. apply In_nth_error in Hin as [j Hj]. apply (wf_blk _ _ _ W Hj). Qed.

Lemma gsum_nonneg : forall s q k, WF s -> 0 <= gsum q k (gbq s).
Proof.
  intros s q k (_ & _ & _ & G). induction G as [|g gl Hg _ IH]; simpl; [lia|].
  destruct g as [i h|q' d]; simpl; [lia|]. destruct Hg as [_ Hd]. specialize (Hd k).
  destruct (q' =? q)%nat; lia.
Qed.

Lemma deb_nonneg : forall s i p k, WF s -> phs s i = Some p -> 0 <= get k (debs s i).
Proof.
  intros s i p k W Hp. destruct (phs_some _ _ _ Hp) as (b & Hb & _).
  destruct (blk_acc _ _ _ Hb) as (_ & _ & ->). apply (wf_blk _ _ _ W Hb).
Qed.

Lemma out_nonneg : forall s q k, WF s -> 0 <= outstanding q k s.
Proof.
  intros s q k W. unfold outstanding. rewrite osum_psum. pose proof (gsum_nonneg s q k W).
  assert (0 <= psum held q k (blocks s)); [|lia].
  rewrite <- (psum_false q k (blocks s)). apply psum_le; [discriminate | exact (wf_deb_nonneg s k W)].
Qed.

Lemma WF_newst : forall s q d cl, WF s -> (q < length (pools s))%nat -> (length d <= nkeys s)%nat ->
  (forall k, 0 <= get k d) -> WF (newst s q d cl).
Proof.
  intros s q d cl (L1 & L2 & B & G) Hq Hd Hn. unfold WF. simpl. rewrite !app_length. simpl.
  split; [lia|]. split; [lia|]. split.
  - intros j b' Hb. destruct (nth_error_snoc _ _ _ _ Hb) as [Hb' | [-> ->]]; [exact (B j b' Hb')|].
    unfold wf_block. simpl. split; [lia|]. auto.
  - eapply Forall_impl; [|exact G]. intros [i h|q' d'] Hg; simpl in *; rewrite app_length; simpl; [|split]; lia || apply Hg.
Qed.

Definition early (p : phase) : bool :=
  match p with Idle | WaitAvail | Taking | Filling => true | _ => false end.
Definition phpart (p : phase) (d : levels) (k : nat) : Z :=
  match p with Filling | Holding => get k d | _ => 0 end.

(* moves that touch no level *)
Inductive pmove (s : state) (b : block) : phase -> Prop :=
| PM_wait : (bph b = Idle /\ owner_ok s (bpar b) = true \/ bph b = WaitAvail) ->
            (bclaim b = false \/ bph b = WaitAvail) ->
            lge (nkeys s) (pool (bpar b) s) (bdeb b) = false -> pmove s b WaitAvail
| PM_refuse : bph b = Idle -> owner_ok s (bpar b) = true -> bclaim b = true ->
            lge (nkeys s) (pool (bpar b) s) (bdeb b) = false -> pmove s b Gone
| PM_abort : bph b = WaitAvail \/ bph b = Returning -> pmove s b Gone
| PM_hold : bph b = Filling -> pmove s b Holding.

(* the block may test its parent pool: first entry under a holding owner, or woken *)
Definition entering (s : state) (b : block) : Prop :=
  bph b = Idle /\ owner_ok s (bpar b) = true \/ bph b = WaitAvail /\ bwok b = true.
(* a foreign signal lands between take and return; [h] is what the block then removes from its share *)
Definition leaving (s : state) (i : nat) (b : block) (h : levels) : Prop :=
  (bph b = Taking \/ bph b = Filling) /\ h = pool (S i) s \/
  bph b = Holding /\ h = bdeb b \/ bph b = Emptying /\ h = [].

Inductive trans (s : state) : state -> Prop :=
| T_none : trans s s
| T_new : forall q d cl, (q < length (pools s))%nat -> (length d <= nkeys s)%nat ->
    (forall k, 0 <= get k d) -> limit_ok s q d = true -> trans s (newst s q d cl)
| T_ph : forall i b p, blk s i = Some b -> pmove s b p -> trans s (setph i p s)
| T_take : forall i b, blk s i = Some b -> entering s b ->
    lge (nkeys s) (pool (bpar b) s) (bdeb b) = true ->
    trans s (chpool (bpar b) (lneg (bdeb b)) (setph i Taking s))
| T_fill : forall i b, blk s i = Some b -> bph b = Taking ->
    trans s (adjust (S i) (bdeb b) (setph i Filling s))
| T_empty : forall i b, blk s i = Some b -> bph b = Holding ->
    trans s (adjust (S i) (lneg (bdeb b)) (setph i Emptying s))
| T_return : forall i b, blk s i = Some b -> bph b = Emptying ->
    trans s (chpool (bpar b) (bdeb b) (setph i Returning s))
| T_giveback : forall i b h, blk s i = Some b -> leaving s i b h ->
    trans s (push [GbOwn i h; GbPar (bpar b) (bdeb b)] (setph i Gone s))
| T_gbown : forall i h r, gbq s = GbOwn i h :: r -> trans s (adjust (S i) (lneg h) (pop s))
| T_gbpar : forall q d r, gbq s = GbPar q d :: r -> trans s (chpool q d (pop s))
| T_adj : forall dl, cap s = None -> (forall k, 0 <= get k (pool 0 s) + get k dl) ->
    trans s (adjust 0 dl s)
| T_set : forall v, cap s = None -> (forall k, 0 <= get k v) ->
    trans s (chins 0 (lsub v (pool 0 s)) (setpool 0 v s)).

Lemma pmove_facts : forall s b p, pmove s b p ->
  held p = held (bph b) /\ (early p = true -> early (bph b) = true) /\
  (forall d k, phpart p d k = phpart (bph b) d k) /\ (p <> Gone -> bph b <> Gone) /\
  (bph b <> Idle \/ owner_ok s (bpar b) = true).
Proof.
  intros s b p [[[P O]|P] _ _ | P O _ _ | [P|P] | P]; rewrite P; simpl;
    repeat split; auto; try discriminate; (left; discriminate) || (right; exact O).
Qed.

Lemma entering_facts : forall s b, entering s b ->
  held (bph b) = false /\ early (bph b) = true /\ (forall d k, phpart (bph b) d k = 0) /\
  bph b <> Gone /\ (bph b <> Idle \/ owner_ok s (bpar b) = true).
Proof.
  intros s b [[P O]|[P _]]; rewrite P; simpl; repeat split; auto; try discriminate;
    (left; discriminate) || (right; exact O).
Qed.

Lemma leaving_facts : forall s i b h, leaving s i b h ->
  held (bph b) = true /\ bph b <> Gone /\ bph b <> Idle.
Proof.
  intros s i b h [[[P|P] _]|[[P _]|[P _]]]; rewrite P; repeat split; discriminate.
Qed.

Lemma step_trans : forall s o,
  (forall k, 0 <= get k (pool 0 s)) -> trans s (fst (step s o)).
Proof.
  intros s o NN.
  assert (Sig : forall i, trans s (fst (step s (Signal i)))).
  { intros i. simpl. fold (blk s i). destruct (blk s i) as [b|] eqn:B; [|constructor].
    destruct (bph b) eqn:P; simpl; try apply T_none;
      try (apply (T_ph s i b Gone B), PM_abort; auto; fail);
      apply (T_giveback s i b _ B); unfold leaving; tauto. }
  destruct o; [| |apply Sig|exact (Sig i)|..]; simpl.
  - destruct ((q <? length (pools s))%nat && (length d <=? nkeys s)%nat) eqn:G; simpl; [|constructor].
    apply andb_prop in G. destruct G as [G1 G2]. apply Nat.ltb_lt in G1. apply Nat.leb_le in G2.
    destruct (lle (nkeys s) [] d && limit_ok s q d) eqn:A; simpl; [|constructor].
    apply andb_prop in A. destruct A as [A1 A2].
    apply T_new; auto. apply (lle_nil_nonneg _ _ G2 A1).
  - fold (blk s i). destruct (blk s i) as [b|] eqn:B; [|constructor].
    destruct (bph b) eqn:P.
    + destruct (owner_ok s (bpar b)) eqn:O; [|constructor]. unfold try_enter, take.
      destruct (lge (nkeys s) (pool (bpar b) s) (bdeb b)) eqn:L; simpl.
      * apply (T_take s i b B); auto. left. auto.
      * destruct (bclaim b) eqn:C; simpl; apply (T_ph s i b _ B).
        -- apply PM_refuse; auto.
        -- apply PM_wait; auto.
    + destruct (bwok b) eqn:W; [|constructor]. unfold try_enter, take.
      destruct (lge (nkeys s) (pool (bpar b) s) (bdeb b)) eqn:L; simpl.
      * apply (T_take s i b B); auto. right. auto.
      * apply (T_ph s i b _ B). apply PM_wait; auto.
    + apply (T_fill s i b B P).
    + apply (T_ph s i b _ B). apply PM_hold; auto.
    + apply (T_empty s i b B P).
    + apply (T_return s i b B P).
    + apply (T_ph s i b _ B). apply PM_abort; auto.
    + constructor.
  - destruct (gbq s) as [|[i h|q d] r] eqn:G; simpl.
    + constructor.
    + apply (T_gbown s i h r G).
    + apply (T_gbpar s q d r G).
  - destruct (is_none (cap s) && (length d <=? nkeys s)%nat) eqn:G; simpl; [|constructor].
    apply andb_prop in G. destruct G as [G1 G2]. apply Nat.leb_le in G2.
    destruct (lle (nkeys s) [] d) eqn:A; simpl; [|constructor].
    apply T_adj.
    + destruct (cap s); auto; discriminate.
    + intros k. pose proof (lle_nil_nonneg _ _ G2 A k). specialize (NN k). lia.
  - destruct (is_none (cap s) && (length d <=? nkeys s)%nat) eqn:G; simpl; [|constructor].
    apply andb_prop in G. destruct G as [G1 G2]. apply Nat.leb_le in G2.
    destruct (lle (nkeys s) [] d && lle (nkeys s) [] (lsub (pool 0 s) d)) eqn:A; simpl; [|constructor].
    apply andb_prop in A. destruct A as [A1 A2].
    apply T_adj.
    + destruct (cap s); auto; discriminate.
    + intros k. rewrite get_lneg. destruct (Nat.lt_ge_cases k (nkeys s)).
      * rewrite lle_spec in A2. specialize (A2 k H). rewrite get_nil, get_lsub in A2. lia.
      * rewrite (get_beyond d) by lia. specialize (NN k). lia.
  - destruct (is_none (cap s)) eqn:G; simpl; [|constructor].
    destruct (nonneg_opts m) eqn:A; simpl; [|constructor].
    apply T_set.
    + destruct (cap s); auto; discriminate.
    + intros k. rewrite get_lset. destruct (k <? nkeys s)%nat; [|lia].
      destruct (nth k m None) as [v|] eqn:E; [|apply NN].
      unfold nonneg_opts in A. rewrite forallb_forall in A.
      assert (I : In (Some v) m).
      { rewrite <- E. apply nth_In. destruct (Nat.lt_ge_cases k (length m)); auto.
        rewrite nth_overflow in E by auto. discriminate. }
      specialize (A _ I). simpl in A. apply Z.leb_le in A. auto.
Qed.

Lemma trans_frame : forall s s', trans s s' ->
  (exists q d cl, s' = newst s q d cl /\ (q < length (pools s))%nat /\ (length d <= nkeys s)%nat /\
                  (forall k, 0 <= get k d) /\ limit_ok s q d = true) \/
  ((forall j, pars s' j = pars s j) /\ (forall j, debs s' j = debs s j) /\ nkeys s' = nkeys s /\
   length (blocks s') = length (blocks s) /\ length (pools s') = length (pools s) /\
   length (ins s') = length (ins s)).
Proof.
  intros s s' T. destruct T; [| left; exists q, d, cl; auto | ..]; right;
    unfold adjust, chpool; (split; [|split; [|split; [|split; [|split]]]]); intros.
  all: rewrite ?pars_chins, ?pars_push, ?pars_setpool, ?pars_setph, ?debs_chins, ?debs_push, ?debs_setpool, ?debs_setph.
  all: cbn -[updn]; rewrite ?map_length, ?updn_length; reflexivity.
Qed.

Lemma WF_frame : forall s s', nkeys s' = nkeys s -> length (blocks s') = length (blocks s) ->
  length (pools s') = length (pools s) -> length (ins s') = length (ins s) ->
  (forall j, pars s' j = pars s j) -> (forall j, debs s' j = debs s j) ->
  Forall (wf_gb s) (gbq s') -> WF s -> WF s'.
Proof.
  intros s s' Hn Hb Hp Hi Fp Fd Hg (L1 & L2 & B & G). unfold WF. rewrite Hp, Hi, Hb. split; [auto|split; [auto|split]].
  - intros j b' Hb'. destruct (blk_acc _ _ _ Hb') as (_ & A2 & A3). rewrite Fp in A2. rewrite Fd in A3.
    unfold pars, debs in *. destruct (blk s j) as [b|] eqn:E; [|discriminate]. inversion A2.
    destruct (B j b E) as (W1 & W2 & W3). unfold wf_block. rewrite Hn, <- H0, <- A3. auto.
  - eapply Forall_impl; [|exact Hg]. intros g. destruct g; simpl; rewrite ?Hp, ?Hb; auto.
Qed.

Lemma WF_trans : forall s s', WF s -> trans s s' -> WF s'.
Proof.
  intros s s' W T.
  destruct (trans_frame s s' T) as [(q & d & cl & -> & Hq & Hl & Hd & _) | (Fp & Fd & Fn & Fb & Fl & Fi)].
  - apply WF_newst; auto.
  - apply (WF_frame s s'); auto. pose proof W as (_ & _ & _ & G).
    destruct T; try exact G; simpl.
    + apply Forall_app. split; [exact G|].
      destruct (wf_blk _ _ _ W H) as (_ & _ & Hp & _ & Hn). pose proof (blk_lt _ _ _ H).
      pose proof W as (L1 & _). repeat constructor; auto; lia.
    + rewrite H in *. apply (Forall_inv_tail G).
    + rewrite H in *. apply (Forall_inv_tail G).
Qed.

Definition CONS (s : state) : Prop :=
  forall q k, get k (pool q s) = get k (insq q s) - outstanding q k s.
Definition NN0 (s : state) : Prop := forall k, 0 <= get k (pool 0 s).

Lemma CONS_trans : forall s s', WF s -> CONS s -> trans s s' -> CONS s'.
Proof.
  intros s s' W C T q0 k. specialize (C q0 k). pose proof W as (L1 & L2 & _).
  destruct T; try destruct (wf_blk _ _ _ W H) as (Hq & Hq' & Hp & _ & _).
  - exact C.
  - rewrite pool_newst, insq_newst, out_newst. exact C.
  - destruct (pmove_facts _ _ _ H0) as (Hh & _). autorewrite with lv.
    rewrite (out_setph _ _ _ _ q0 k H), Hh. destruct (bpar b =? q0)%nat; lia.
  - destruct (entering_facts _ _ H0) as (Hh & _).
    rewrite gpool_chpool by (simpl; lia). unfold chpool. autorewrite with lv.
    rewrite (out_setph _ _ _ _ q0 k H), Hh, get_lneg. cbn [held]. destruct (bpar b =? q0)%nat; lia.
  - rewrite gpool_adjust, gins_adjust by (simpl; lia). unfold adjust, chpool. autorewrite with lv.
    rewrite (out_setph _ _ _ _ q0 k H), H0. cbn [held].
    destruct (S i =? q0)%nat; destruct (bpar b =? q0)%nat; lia.
  - rewrite gpool_adjust, gins_adjust by (simpl; lia). unfold adjust, chpool. autorewrite with lv.
    rewrite (out_setph _ _ _ _ q0 k H), H0. cbn [held].
    destruct (S i =? q0)%nat; destruct (bpar b =? q0)%nat; lia.
  - rewrite gpool_chpool by (simpl; lia). unfold chpool. autorewrite with lv.
    rewrite (out_setph _ _ _ _ q0 k H), H0. cbn [held]. destruct (bpar b =? q0)%nat; lia.
  - destruct (leaving_facts _ _ _ _ H0) as (Hh & _). autorewrite with lv.
    rewrite (out_setph _ _ _ _ q0 k H), Hh. cbn [held gsum outg]. destruct (bpar b =? q0)%nat; lia.
  - pose proof (wf_head _ _ _ W H) as Hi. simpl in Hi.
    rewrite gpool_adjust, gins_adjust by (simpl; lia). unfold adjust, chpool. autorewrite with lv.
    rewrite (out_pop _ _ _ q0 k H). cbn [outg]. lia.
  - destruct (wf_head _ _ _ W H) as [Hq _].
    rewrite gpool_chpool by (simpl; lia). unfold chpool. autorewrite with lv.
    rewrite (out_pop _ _ _ q0 k H). cbn [outg]. destruct (q =? q0)%nat; lia.
  - rewrite gpool_adjust, gins_adjust by lia. unfold adjust, chpool. autorewrite with lv. lia.
  - rewrite gins_chins by (simpl; lia). rewrite pool_chins, pool_setpool by lia. autorewrite with lv.
    destruct (Nat.eqb_spec q0 0) as [->|N].
    + simpl. rewrite get_lsub. lia.
    + rewrite (proj2 (Nat.eqb_neq 0 q0)) by auto. lia.
Qed.

Lemma NN0_trans : forall s s', WF s -> NN0 s -> trans s s' -> NN0 s'.
Proof.
  intros s s' W N T k. specialize (N k). pose proof W as (L1 & L2 & _).
  destruct T; try destruct (wf_blk _ _ _ W H) as (Hq & _ & Hp & Hl & Hn); try exact N.
  - rewrite pool_newst. exact N.
  - rewrite gpool_chpool by (simpl; lia). autorewrite with lv. rewrite get_lneg.
    destruct (Nat.eqb_spec (bpar b) 0) as [E|]; [|lia].
    destruct (lge_le_or_zero _ _ _ Hl H1 k); rewrite E in *; lia.
  - rewrite gpool_adjust by (simpl; lia). autorewrite with lv. cbn [Nat.eqb]. lia.
  - rewrite gpool_adjust by (simpl; lia). autorewrite with lv. cbn [Nat.eqb]. lia.
  - rewrite gpool_chpool by (simpl; lia). autorewrite with lv. specialize (Hn k).
    destruct (bpar b =? 0)%nat; lia.
  - pose proof (wf_head _ _ _ W H) as Hi. simpl in Hi.
    rewrite gpool_adjust by (simpl; lia). autorewrite with lv. cbn [Nat.eqb]. lia.
  - destruct (wf_head _ _ _ W H) as [Hq Hd]. specialize (Hd k).
    rewrite gpool_chpool by (simpl; lia). autorewrite with lv. destruct (q =? 0)%nat; lia.
  - rewrite gpool_adjust by lia. cbn [Nat.eqb]. apply H0.
  - rewrite pool_chins, pool_setpool by lia. simpl. apply H0.
Qed.

Definition CLM (s : state) : Prop :=
  forall i b, blk s i = Some b -> bclaim b = true -> bph b <> WaitAvail.
Definition WAKE (s : state) : Prop :=
  forall i b, blk s i = Some b -> bph b = WaitAvail -> bwok b = false ->
  lge (nkeys s) (pool (bpar b) s) (bdeb b) = false.

Lemma CLM_setph : forall s i p, CLM s ->
  (forall b, blk s i = Some b -> bclaim b = true -> p <> WaitAvail) -> CLM (setph i p s).
Proof.
  intros s i p C Hp j b' Hb Hc. rewrite blk_setph in Hb. destruct (Nat.eqb_spec j i) as [->|].
  - destruct (blk s i) as [b|] eqn:F; inversion Hb; subst. simpl in *. eapply Hp; eauto.
  - eapply C; eauto.
Qed.

Lemma CLM_setpool : forall s q v, CLM s -> CLM (setpool q v s).
Proof.
  intros s q v C j b' Hb Hc. rewrite blk_setpool in Hb.
  destruct (blk s j) as [b|] eqn:F; inversion Hb; subst.
  rewrite bclaim_mark in Hc. rewrite bph_mark. eapply C; eauto.
Qed.

Lemma CLM_adjust : forall s q d, CLM s -> CLM (adjust q d s).
Proof. intros s q d C. exact (CLM_setpool s q _ C). Qed.

Lemma CLM_trans : forall s s', CLM s -> trans s s' -> CLM s'.
Proof.
  intros s s' C T. destruct T.
  - exact C.
  - intros j b' Hb Hc. destruct (nth_error_snoc _ _ _ _ Hb) as [Hb' | [_ ->]]; [exact (C j b' Hb' Hc) | discriminate].
  - apply CLM_setph; auto. intros b0 Hb0 Hc ->. rewrite H in Hb0. inversion Hb0; subst b0.
    inversion H0 as [_ [F|F] _| | |]; [congruence | exact (C i b H Hc F)].
  - apply CLM_setpool, CLM_setph; auto. discriminate.
  - apply CLM_adjust, CLM_setph; auto. discriminate.
  - apply CLM_adjust, CLM_setph; auto. discriminate.
  - apply CLM_setpool, CLM_setph; auto. discriminate.
  - apply (CLM_setph s i Gone C). discriminate.
  - apply CLM_adjust. exact C.
  - apply CLM_setpool. exact C.
  - apply CLM_adjust, C.
  - exact (CLM_setpool s 0 v C).
Qed.

Lemma WAKE_setpool : forall s q v, WAKE s -> (q < length (pools s))%nat -> WAKE (setpool q v s).
Proof.
  intros s q v W Hq j b' Hb Hp Hw. rewrite blk_setpool in Hb.
  destruct (blk s j) as [b|] eqn:F; inversion Hb; subst. clear Hb.
  rewrite bph_mark in Hp. rewrite bpar_mark, bdeb_mark. rewrite pool_setpool by auto.
  change (nkeys (setpool q v s)) with (nkeys s).
  unfold mark in Hw. rewrite Hp in Hw. simpl in Hw.
  destruct (bpar b =? q)%nat eqn:E; simpl in Hw.
  - destruct (lge (nkeys s) v (bdeb b)) eqn:L; simpl in Hw; [discriminate | auto].
  - eapply W; eauto.
Qed.

Lemma WAKE_adjust : forall s q d, WAKE s -> (q < length (pools s))%nat -> WAKE (adjust q d s).
Proof. intros s q d W Hq. exact (WAKE_setpool s q _ W Hq). Qed.

Lemma WAKE_setph : forall s i p b, WAKE s -> blk s i = Some b ->
  (p = WaitAvail -> lge (nkeys s) (pool (bpar b) s) (bdeb b) = false) -> WAKE (setph i p s).
Proof.
  intros s i p b W Hb Hl j b' Hb' Hp Hw. rewrite blk_setph in Hb'.
  destruct (Nat.eqb_spec j i) as [->|].
  - rewrite Hb in Hb'. inversion Hb'; subst b'. simpl in *. apply Hl; auto.
  - eapply W; eauto.
Qed.

Lemma WAKE_trans : forall s s', WF s -> WAKE s -> trans s s' -> WAKE s'.
Proof.
  intros s s' Wf W T. pose proof Wf as (L1 & L2 & _).
  destruct T; try destruct (wf_blk _ _ _ Wf H) as (Hq & _ & Hp & _ & _); unfold chpool.
  - exact W.
  - intros j b' Hb Hph Hw. destruct (nth_error_snoc _ _ _ _ Hb) as [Hb' | [_ ->]]; [|discriminate].
    rewrite pool_newst. exact (W j b' Hb' Hph Hw).
  - apply (WAKE_setph s i p b W H). intros ->. inversion H0; auto.
  - apply WAKE_setpool; [|simpl; lia]. apply (WAKE_setph s i _ b W H). discriminate.
  - apply WAKE_adjust; [|simpl; lia]. apply (WAKE_setph s i _ b W H). discriminate.
  - apply WAKE_adjust; [|simpl; lia]. apply (WAKE_setph s i _ b W H). discriminate.
  - apply WAKE_setpool; [|simpl; lia]. apply (WAKE_setph s i _ b W H). discriminate.
  - apply (WAKE_setph s i Gone b W H). discriminate.
  - pose proof (wf_head _ _ _ Wf H) as Hi. simpl in Hi. apply WAKE_adjust; [exact W | simpl; lia].
  - destruct (wf_head _ _ _ Wf H) as [Hq _]. apply WAKE_setpool; [exact W | simpl; lia].
  - apply WAKE_adjust; [exact W | lia].
  - apply (WAKE_setpool s 0 v W). lia.
Qed.

(* while block i has not reached Holding nobody has entered on its share and no give-back to it is scheduled *)
Definition EARLY (s : state) : Prop :=
  forall i p, phs s i = Some p -> early p = true ->
  (forall j, pars s j = Some (S i) -> phs s j = Some Idle) /\
  (forall q d, In (GbPar q d) (gbq s) -> q <> S i).

Lemma early_out_zero : forall s i p k, EARLY s -> phs s i = Some p -> early p = true ->
  outstanding (S i) k s = 0.
Proof.
  intros s i p k E Hp He. destruct (E i p Hp He) as [E1 E2]. unfold outstanding.
  rewrite gsum_zero by auto. rewrite osum_zero; auto.
  intros j c Hc Hq. destruct (blk_acc s j c Hc) as (A1 & A2 & _). rewrite Hq in A2.
  apply E1 in A2. rewrite A1 in A2. inversion A2 as [P]. rewrite P. reflexivity.
Qed.

Lemma owner_ok_S : forall s j, owner_ok s (S j) = true -> phs s j = Some Holding.
Proof.
  intros s j H. unfold owner_ok in H. unfold phs, blk. destruct (nth_error (blocks s) j); try discriminate.
  simpl. destruct (bph b); try discriminate. reflexivity.
Qed.

Lemma EARLY_frame : forall s s',
  (forall j, phs s' j = phs s j) -> (forall j, pars s' j = pars s j) ->
  (forall g, In g (gbq s') -> In g (gbq s)) -> EARLY s -> EARLY s'.
Proof.
  intros s s' Hp Hq Hg E i p Hi He. rewrite Hp in Hi. destruct (E i p Hi He) as [E1 E2]. split.
  - intros j Hj. rewrite Hq in Hj. rewrite Hp. auto.
  - intros q d Hin. apply Hg in Hin. eauto.
Qed.

Lemma EARLY_setpool : forall s q v, EARLY s -> EARLY (setpool q v s).
Proof. intros s q v. apply EARLY_frame; intros; autorewrite with bk; auto. Qed.

Lemma EARLY_adjust : forall s q d, EARLY s -> EARLY (adjust q d s).
Proof. intros s q d E. exact (EARLY_setpool s q _ E). Qed.

Lemma EARLY_pop : forall s, EARLY s -> EARLY (pop s).
Proof. intros s. apply EARLY_frame; auto. simpl. intros g. destruct (gbq s); simpl; auto. Qed.

Lemma EARLY_setph : forall s i p b, EARLY s -> blk s i = Some b -> (bpar b <= i)%nat ->
  (early p = true -> early (bph b) = true) ->
  (bph b <> Idle \/ owner_ok s (bpar b) = true) -> EARLY (setph i p s).
Proof.
  intros s i p b E Hb Hle Hearly Hown i0 p0 Hp0 He0.
  destruct (blk_acc _ _ _ Hb) as (A1 & A2 & A3).
  rewrite phs_setph in Hp0. destruct (Nat.eqb_spec i0 i) as [->|N0].
  - rewrite A1 in Hp0. simpl in Hp0. inversion Hp0; subst p0.
    destruct (E i (bph b) A1 (Hearly He0)) as [E1 E2]. split; auto.
    intros j Hj. rewrite pars_setph in Hj. rewrite phs_setph.
    destruct (Nat.eqb_spec j i) as [->|]; auto. rewrite A2 in Hj. inversion Hj. lia.
  - destruct (E i0 p0 Hp0 He0) as [E1 E2]. split; auto.
    intros j Hj. rewrite pars_setph in Hj. rewrite phs_setph.
    destruct (Nat.eqb_spec j i) as [->|]; auto.
    exfalso. pose proof (E1 i Hj) as X. rewrite A1 in X. inversion X as [X'].
    destruct Hown as [F | F]; [congruence|].
    rewrite A2 in Hj. inversion Hj as [Hq]. rewrite Hq in F. apply owner_ok_S in F.
    rewrite F in Hp0. inversion Hp0; subst p0. discriminate.
Qed.

Lemma EARLY_trans : forall s s', WF s -> EARLY s -> trans s s' -> EARLY s'.
Proof.
  intros s s' W E T. pose proof W as (L1 & L2 & _).
  destruct T; try destruct (wf_blk _ _ _ W H) as (_ & _ & Hp & _ & _); unfold chpool.
  - exact E.
  - intros i p Hph He. rewrite phs_newst in Hph. destruct (Nat.ltb_spec i (length (blocks s))) as [Ei|Ei].
    + destruct (E i p Hph He) as [E1 E2]. split; auto.
      intros j Hj. rewrite pars_newst in Hj. rewrite phs_newst.
      destruct (j <? length (blocks s))%nat; auto.
      destruct (j =? length (blocks s))%nat; auto; discriminate.
    + destruct (Nat.eqb_spec i (length (blocks s))) as [->|]; [|discriminate]. split.
      * intros j Hj. rewrite pars_newst in Hj. destruct (j <? length (blocks s))%nat eqn:Ej.
        -- apply (pars_lt s j _ W) in Hj. lia.
        -- destruct (j =? length (blocks s))%nat; [|discriminate]. inversion Hj. lia.
      * intros q' d' Hin. apply (wf_queued _ _ W) in Hin. simpl in Hin. lia.
  - destruct (pmove_facts _ _ _ H0) as (_ & He & _ & _ & Ho). apply (EARLY_setph s i p b E H Hp He Ho).
  - destruct (entering_facts _ _ H0) as (_ & He & _ & _ & Ho).
    apply EARLY_setpool, (EARLY_setph s i _ b E H Hp (fun _ => He) Ho).
  - apply EARLY_adjust, (EARLY_setph s i _ b E H Hp); rewrite H0; [reflexivity | left; discriminate].
  - apply EARLY_adjust, (EARLY_setph s i _ b E H Hp); rewrite H0; [discriminate | left; discriminate].
  - apply EARLY_setpool, (EARLY_setph s i _ b E H Hp); rewrite H0; [discriminate | left; discriminate].
  - (* the give-back to the parent pool is scheduled while the parent may be early: then this block would
       be Idle, and it is Gone *)
    destruct (leaving_facts _ _ _ _ H0) as (_ & _ & Hi). destruct (blk_acc _ _ _ H) as (A1 & A2 & _).
    assert (E' : EARLY (setph i Gone s)) by (apply (EARLY_setph s i _ b E H Hp); [discriminate | auto]).
    intros i0 p0 Hp0 He0. destruct (E' i0 p0 Hp0 He0) as [E1 E2]. split; auto.
    intros q d Hin. rewrite gbq_push in Hin. apply in_app_or in Hin. destruct Hin as [Hin | Hin]; eauto.
    simpl in Hin. destruct Hin as [F | [F | []]]; [discriminate|]. inversion F; subst q d.
    intro Hq. assert (X : phs (setph i Gone s) i = Some Idle).
    { apply E1. rewrite pars_setph, A2. congruence. }
    rewrite phs_setph, Nat.eqb_refl, A1 in X. discriminate.
  - apply EARLY_adjust, EARLY_pop, E.
  - apply EARLY_setpool, EARLY_pop, E.
  - apply EARLY_adjust, E.
  - exact (EARLY_setpool s 0 v E).
Qed.

(* what a block has put into its own share: its amount while Filling / Holding, afterwards what its scheduled
   removals will take out again *)
Fixpoint ownsum (i k : nat) (gl : list gb) : Z :=
  match gl with
  | [] => 0
  | GbOwn i' h :: r => (if (i' =? i)%nat then get k h else 0) + ownsum i k r
  | GbPar _ _ :: r => ownsum i k r
  end.
Definition own_nonneg (gl : list gb) : Prop :=
  forall i h, In (GbOwn i h) gl -> forall k, 0 <= get k h.
Definition GINS (s : state) : Prop :=
  own_nonneg (gbq s) /\
  forall i p, phs s i = Some p -> forall k,
    get k (insq (S i) s) = phpart p (debs s i) k + ownsum i k (gbq s) /\
    (p <> Gone -> ownsum i k (gbq s) = 0) /\
    ownsum i k (gbq s) <= get k (debs s i).

Lemma ownsum_app : forall i k a b, ownsum i k (a ++ b) = ownsum i k a + ownsum i k b.
Proof. induction a; simpl; intros; auto. destruct a; rewrite IHa; lia. Qed.

Lemma own_nonneg_tail : forall g gl, own_nonneg (g :: gl) -> own_nonneg gl.
Proof. intros g gl N i h Hin. apply (N i h). right. exact Hin. Qed.

Lemma ownsum_nonneg : forall i k gl, own_nonneg gl -> 0 <= ownsum i k gl.
Proof.
  induction gl; simpl; intros; [lia|].
  pose proof (own_nonneg_tail _ _ H).
  destruct a; auto. specialize (IHgl H0).
  destruct (i0 =? i)%nat; [|lia]. specialize (H i0 h (or_introl eq_refl) k). lia.
Qed.

Lemma ownsum_none : forall i k gl, (forall i' h, In (GbOwn i' h) gl -> i' <> i) -> ownsum i k gl = 0.
Proof.
  induction gl; simpl; intros; auto.
  rewrite IHgl by (intros; eapply H; eauto). destruct a; auto.
  destruct (Nat.eqb_spec i0 i); auto. exfalso. eapply H; eauto.
Qed.

Lemma GINS_frame : forall s s',
  (forall j, phs s' j = phs s j) -> (forall j, debs s' j = debs s j) ->
  (forall i, insq (S i) s' = insq (S i) s) -> gbq s' = gbq s -> GINS s -> GINS s'.
Proof.
  intros s s' Hp Hd Hi Hg [N I]. split; [rewrite Hg; auto|].
  intros i p Hph k. rewrite Hp in Hph. rewrite Hd, Hi, Hg. auto.
Qed.

Lemma GINS_setpool : forall s q v, GINS s -> GINS (setpool q v s).
Proof. intros s q v. apply GINS_frame; intros; autorewrite with bk; auto. Qed.

(* the supply's own levels and ghost are no block's share *)
Lemma GINS_supply : forall s d v, GINS s -> GINS (chins 0 d (setpool 0 v s)).
Proof.
  intros s d v G. apply (GINS_frame (setpool 0 v s)); auto; [|apply GINS_setpool, G].
  intros i. apply insq_chins_ne. discriminate.
Qed.

Lemma GINS_setph : forall s i p b, GINS s -> blk s i = Some b ->
  (forall d k, phpart p d k = phpart (bph b) d k) -> (p <> Gone -> bph b <> Gone) ->
  GINS (setph i p s).
Proof.
  intros s i p b [N I] Hb Hpp Hg. destruct (blk_acc _ _ _ Hb) as (A1 & A2 & A3).
  split; auto. intros j pj Hph k. rewrite phs_setph in Hph. rewrite debs_setph.
  change (insq (S j) (setph i p s)) with (insq (S j) s). change (gbq (setph i p s)) with (gbq s).
  destruct (Nat.eqb_spec j i) as [->|]; [|auto].
  rewrite A1 in Hph. simpl in Hph. inversion Hph; subst pj.
  destruct (I i (bph b) A1 k) as (I1 & I2 & I3). rewrite Hpp. auto.
Qed.

Lemma GINS_own : forall s i b p d, GINS s -> blk s i = Some b -> (S i < length (ins s))%nat ->
  bph b <> Gone ->
  (forall k, phpart p (bdeb b) k = phpart (bph b) (bdeb b) k + get k d) ->
  GINS (adjust (S i) d (setph i p s)).
Proof.
  intros s i b p d [N I] Hb Hl Hg Hpp. destruct (blk_acc _ _ _ Hb) as (A1 & _ & A3).
  split; [exact N|]. intros j pj Hph k. rewrite gins_adjust by (simpl; lia).
  unfold adjust, chpool in *. autorewrite with bk in Hph. autorewrite with bk lv.
  destruct (Nat.eqb_spec j i) as [->|Nj].
  - rewrite A1 in Hph. simpl in Hph. inversion Hph; subst pj.
    destruct (I i (bph b) A1 k) as (I1 & I2 & I3). rewrite Nat.eqb_refl, A3 in *.
    rewrite Hpp. rewrite I2 in * by auto. repeat split; auto; lia.
  - rewrite (proj2 (Nat.eqb_neq (S i) (S j))) by lia. rewrite Z.add_0_r. exact (I j pj Hph k).
Qed.

Lemma leaving_amount : forall s i b h, WF s -> CONS s -> EARLY s -> GINS s ->
  blk s i = Some b -> leaving s i b h ->
  forall k, get k h = get k (insq (S i) s) /\ 0 <= get k h <= get k (bdeb b).
Proof.
  intros s i b h W C E [N I] Hb Hl k. destruct (blk_acc _ _ _ Hb) as (A1 & _ & A3).
  destruct (leaving_facts _ _ _ _ Hl) as (_ & NG & _). destruct (wf_blk _ _ _ W Hb) as (_ & _ & _ & _ & Hn).
  destruct (I i (bph b) A1 k) as (I1 & I2 & _). rewrite A3 in *. specialize (Hn k). rewrite I2 in I1 by exact NG.
  destruct Hl as [[P ->] | [[P ->] | [P ->]]].
  - (* before Holding nobody has used the share: it still holds all that was put there *)
    assert (Ee : early (bph b) = true) by (destruct P as [P | P]; rewrite P; reflexivity).
    pose proof (C (S i) k) as Cq. rewrite (early_out_zero s i (bph b) k E A1 Ee) in Cq.
    destruct P as [P | P]; rewrite P in I1; simpl in I1; lia.
  - rewrite P in I1. simpl in I1. lia.
  - rewrite P in I1. simpl in I1. rewrite get_nil. lia.
Qed.

Lemma GINS_trans : forall s s', WF s -> CONS s -> EARLY s -> GINS s -> trans s s' -> GINS s'.
Proof.
  intros s s' W C E GI T. pose proof W as (L1 & L2 & _).
  destruct T; try destruct (wf_blk _ _ _ W H) as (_ & Hq' & _ & _ & Hn); unfold chpool.
  - exact GI.
  - destruct GI as [N I]. split; [exact N|].
    intros i p Hph k. rewrite phs_newst in Hph. rewrite debs_newst, insq_newst.
    change (gbq (newst s q d cl)) with (gbq s).
    destruct (i <? length (blocks s))%nat; [exact (I i p Hph k)|].
    destruct (Nat.eqb_spec i (length (blocks s))) as [->|]; [|discriminate]. inversion Hph; subst p.
    unfold insq. rewrite nth_overflow, get_nil by lia. rewrite ownsum_none.
    + simpl. repeat split; auto.
    + intros i' h Hin. apply (wf_queued _ _ W) in Hin. simpl in Hin. lia.
  - destruct (pmove_facts _ _ _ H0) as (_ & _ & Hpp & Hg & _). apply (GINS_setph s i p b GI H Hpp Hg).
  - destruct (entering_facts _ _ H0) as (_ & _ & Hpp & Hg & _).
    apply GINS_setpool, (GINS_setph s i _ b GI H); [intros; rewrite Hpp; reflexivity | auto].
  - apply (GINS_own s i b _ _ GI H Hq'); rewrite ?H0; try discriminate. intros k. simpl. lia.
  - apply (GINS_own s i b _ _ GI H Hq'); rewrite ?H0; try discriminate.
    intros k. rewrite get_lneg. simpl. lia.
  - apply GINS_setpool, (GINS_setph s i _ b GI H); rewrite H0; [reflexivity | discriminate].
  - destruct (blk_acc _ _ _ H) as (A1 & _ & A3). destruct (leaving_facts _ _ _ _ H0) as (_ & NG & _).
    pose proof (leaving_amount s i b h W C E GI H H0) as HH. destruct GI as [N I].
    split.
    + intros i' h' Hin k. rewrite gbq_push, gbq_setph in Hin. apply in_app_or in Hin.
      destruct Hin as [Hin | [Hin | [Hin | []]]]; [eapply N; eauto | | discriminate].
      inversion Hin; subst. apply HH.
    + intros j pj Hph k. autorewrite with bk in Hph. autorewrite with bk lv. rewrite ownsum_app. simpl.
      destruct (Nat.eqb_spec j i) as [->|Nj].
      * rewrite A1 in Hph. simpl in Hph. inversion Hph; subst pj.
        destruct (I i (bph b) A1 k) as (I1 & I2 & I3). destruct (HH k) as (H1 & H2).
        rewrite I2 by auto. rewrite Nat.eqb_refl, A3. simpl. repeat split; try lia. congruence.
      * rewrite (proj2 (Nat.eqb_neq i j)) by auto. destruct (I j pj Hph k) as (I1 & I2 & I3).
        repeat split; auto; try lia. intros. rewrite I2 by auto. lia.
  - destruct GI as [N I]. pose proof (wf_head _ _ _ W H) as Hi. simpl in Hi. rewrite H in *.
    pose proof (own_nonneg_tail _ _ N) as N'.
    split; [unfold adjust, chpool; autorewrite with bk; rewrite H; exact N'|].
    intros j pj Hph k. rewrite gins_adjust by (simpl; lia). unfold adjust, chpool in *.
    autorewrite with bk in Hph. autorewrite with bk lv. rewrite H. simpl.
    destruct (I j pj Hph k) as (I1 & I2 & I3). simpl in *.
    pose proof (N i h (or_introl eq_refl) k) as Hh. pose proof (ownsum_nonneg j k r N') as Hr0.
    rewrite get_lneg. change (S i =? S j)%nat with (i =? j)%nat.
    destruct (i =? j)%nat; repeat split; try lia; intros X; specialize (I2 X); lia.
  - destruct GI as [N I]. rewrite H in *.
    pose proof (own_nonneg_tail _ _ N) as N'.
    split; [autorewrite with bk; rewrite H; exact N'|].
    intros j pj Hph k. autorewrite with bk in Hph. autorewrite with bk lv. rewrite H. exact (I j pj Hph k).
  - exact (GINS_supply s dl _ GI).
  - exact (GINS_supply s _ v GI).
Qed.

Definition NS (s : state) : Prop :=
  forall i p, phs s i = Some p -> forall k, outstanding (S i) k s <= get k (debs s i).

Lemma ins_le_deb : forall s i p k, GINS s -> phs s i = Some p ->
  get k (insq (S i) s) <= get k (debs s i).
Proof.
  intros s i p k [N I] Hp. destruct (I i p Hp k) as (I1 & I2 & I3).
  destruct p; simpl in I1; try lia; rewrite I2 in I1 by discriminate; lia.
Qed.

Lemma out_beyond : forall s q k, WF s -> (length (pools s) <= q)%nat -> outstanding q k s = 0.
Proof.
  intros s q k W Hq. pose proof W as (L1 & _). unfold outstanding.
  rewrite osum_zero, gsum_zero; auto.
  - intros q' d Hin. apply (wf_queued _ _ W) in Hin. simpl in Hin. lia.
  - intros j c Hc Hp. destruct (wf_blk s j c W Hc) as (X & _ & Y & _). lia.
Qed.

Lemma out_trans : forall s s' qq k, WF s -> trans s s' ->
  outstanding qq k s' <= outstanding qq k s \/
  exists i b, blk s i = Some b /\ bpar b = qq /\ lge (nkeys s) (pool qq s) (bdeb b) = true /\
              outstanding qq k s' = outstanding qq k s + get k (bdeb b).
Proof.
  intros s s' qq k W T.
  destruct T; try (destruct (wf_blk _ _ _ W H) as (_ & _ & _ & _ & Hn); specialize (Hn k));
    unfold adjust, chpool; rewrite ?out_chins, ?out_setpool, ?out_push; try rewrite (out_setph _ _ _ _ qq k H).
  - left. lia.
  - left. rewrite out_newst. lia.
  - left. destruct (pmove_facts _ _ _ H0) as (-> & _). destruct (bpar b =? qq)%nat; lia.
  - destruct (entering_facts _ _ H0) as (-> & _). cbn [held].
    destruct (Nat.eqb_spec (bpar b) qq) as [<-|]; [right|left; lia]. exists i, b. repeat split; auto. lia.
  - left. rewrite H0. cbn [held]. destruct (bpar b =? qq)%nat; lia.
  - left. rewrite H0. cbn [held]. destruct (bpar b =? qq)%nat; lia.
  - left. rewrite H0. cbn [held]. destruct (bpar b =? qq)%nat; lia.
  - left. destruct (leaving_facts _ _ _ _ H0) as (-> & _). cbn [held gsum outg].
    destruct (bpar b =? qq)%nat; lia.
  - left. rewrite (out_pop _ _ _ qq k H). cbn [outg]. lia.
  - left. rewrite (out_pop _ _ _ qq k H). cbn [outg]. destruct (wf_head _ _ _ W H) as [_ Hd].
    specialize (Hd k). destruct (q =? qq)%nat; lia.
  - left. lia.
  - left. lia.
Qed.

Lemma NS_trans : forall s s', WF s -> CONS s -> GINS s -> NS s -> trans s s' -> NS s'.
Proof.
  intros s s' W C GI N T i p Hph k.
  destruct (trans_frame s s' T) as [(q & d & cl & -> & Hq & _ & Hd & _) | (_ & F2 & _ & F4 & _)].
  - rewrite phs_newst in Hph. rewrite debs_newst, out_newst.
    destruct (i <? length (blocks s))%nat; [exact (N i p Hph k)|].
    destruct (Nat.eqb_spec i (length (blocks s))) as [->|]; [|discriminate].
    pose proof W as (L1 & _). rewrite out_beyond by (auto; lia). apply Hd.
  - rewrite F2. assert (exists p', phs s i = Some p') as [p' Hp'].
    { apply phs_defined. rewrite <- F4. apply phs_defined. eauto. }
    pose proof (N i p' Hp' k) as Ni.
    destruct (out_trans s s' (S i) k W T) as [Hle | (j & b & Hb & Hpar & Hl & ->)]; [lia|].
    (* the taker found its amount in the share, which holds at most what the owner put there *)
    destruct (wf_blk _ _ _ W Hb) as (_ & _ & _ & Hlen & _).
    pose proof (ins_le_deb s i p' k GI Hp'). pose proof (C (S i) k).
    destruct (lge_le_or_zero _ _ _ Hlen Hl k); lia.
Qed.

(* each nested request is within the owner's share (assertion in borrow()) *)
Definition LIM (s : state) : Prop :=
  forall j i, pars s j = Some (S i) -> lge (nkeys s) (debs s i) (debs s j) = true.

Lemma LIM_trans : forall s s', WF s -> LIM s -> trans s s' -> LIM s'.
Proof.
  intros s s' W L T. destruct (trans_frame s s' T) as [(q & d & cl & -> & Hq & _ & _ & Hl) | (F1 & F2 & F3 & _)].
  - intros j i Hp. rewrite pars_newst in Hp. rewrite !debs_newst.
    change (nkeys (newst s q d cl)) with (nkeys s). pose proof W as (L1 & _).
    destruct (j <? length (blocks s))%nat eqn:Ej.
    + pose proof (pars_lt s j _ W Hp) as [X1 X2].
      rewrite (proj2 (Nat.ltb_lt i (length (blocks s)))) by lia. auto.
    + destruct (j =? length (blocks s))%nat; [|discriminate]. inversion Hp; subst q.
      rewrite (proj2 (Nat.ltb_lt i (length (blocks s)))) by lia.
      simpl in Hl. unfold debs, blk. destruct (nth_error (blocks s) i); [auto|discriminate].
  - intros j i Hp. rewrite F1 in Hp. rewrite F3, !F2. auto.
Qed.

Definition INV (s : state) : Prop :=
  WF s /\ CONS s /\ NN0 s /\ CLM s /\ WAKE s /\ EARLY s /\ GINS s /\ NS s /\ LIM s.

Lemma INV_init : forall n c lv, (forall k, 0 <= get k lv) -> INV (init n c lv).
Proof.
  intros n c lv Hlv. unfold INV, init.
  assert (NB : forall j, blk (mkS n c [lv] [lv] [] []) j = None) by (intros j; destruct j; reflexivity).
  assert (NP : forall j, phs (mkS n c [lv] [lv] [] []) j = None) by (intros; unfold phs; rewrite NB; auto).
  assert (NQ : forall j, pars (mkS n c [lv] [lv] [] []) j = None) by (intros; unfold pars; rewrite NB; auto).
  split; [|split; [|split; [|split; [|split; [|split; [|split; [|split]]]]]]].
  - unfold WF. simpl. split; auto. split; auto. split; [|constructor].
    intros i b Hb. rewrite NB in Hb. discriminate.
  - intros q k. unfold pool, insq, outstanding. simpl. lia.
  - exact Hlv.
  - intros i b Hb. rewrite NB in Hb. discriminate.
  - intros i b Hb. rewrite NB in Hb. discriminate.
  - intros i p Hp. rewrite NP in Hp. discriminate.
  - split; [intros i h []|]. intros i p Hp. rewrite NP in Hp. discriminate.
  - intros i p Hp. rewrite NP in Hp. discriminate.
  - intros j i Hp. rewrite NQ in Hp. discriminate.
Qed.

Lemma INV_trans : forall s s', INV s -> trans s s' -> INV s'.
Proof.
  intros s s' (W & C & N & CL & WK & E & GI & NSs & L) T. unfold INV.
  split; [exact (WF_trans s s' W T)|]. split; [exact (CONS_trans s s' W C T)|].
  split; [exact (NN0_trans s s' W N T)|]. split; [exact (CLM_trans s s' CL T)|].
  split; [exact (WAKE_trans s s' W WK T)|]. split; [exact (EARLY_trans s s' W E T)|].
  split; [exact (GINS_trans s s' W C E GI T)|]. split; [exact (NS_trans s s' W C GI NSs T)|].
  exact (LIM_trans s s' W L T).
Qed.

Lemma INV_step : forall s o, INV s -> INV (fst (step s o)).
Proof. intros s o I. apply (INV_trans s _ I), step_trans, I. Qed.

Lemma run_inv : forall P : state -> Prop, (forall s o, P s -> P (fst (step s o))) ->
  forall tr s, P s -> P (run s tr).
Proof. intros P H. induction tr; simpl; auto. Qed.

Definition valid_init (lv : levels) : Prop := forall k, 0 <= get k lv.

Lemma INV_reachable : forall n c lv s, valid_init lv -> reachable_from (init n c lv) s -> INV s.
Proof. intros n c lv s V [tr ->]. apply (run_inv INV INV_step), INV_init, V. Qed.

(* at quiescence (no block between take and return, no give-back scheduled) every pool holds
   exactly what was put in: nothing leaked, whatever the exit routes were *)
Lemma INV_quiescence : forall s, INV s -> quiescent s ->
  forall q k, get k (pool q s) = get k (insq q s).
Proof.
  intros s (_ & C & _) [Q1 Q2] q k. rewrite (C q k). unfold outstanding.
  rewrite Q2. simpl. rewrite osum_zero; [lia|].
  intros j b Hb _. apply Q1. eapply nth_error_In; eauto.
Qed.

Lemma INV_nested_le_share : forall s i b, INV s -> blk s i = Some b ->
  forall k, outstanding (S i) k s <= get k (bdeb b).
Proof.
  intros s i b (_ & _ & _ & _ & _ & _ & _ & N & _) Hb k.
  destruct (blk_acc _ _ _ Hb) as (A1 & _ & <-). exact (N i _ A1 k).
Qed.

Lemma INV_nested_request : forall s j cb i b, INV s ->
  blk s j = Some cb -> bpar cb = S i -> blk s i = Some b ->
  forall k, (k < nkeys s)%nat -> get k (bdeb cb) <= get k (bdeb b).
Proof.
  intros s j cb i b (_ & _ & _ & _ & _ & _ & _ & _ & L) Hc Hp Hb.
  destruct (blk_acc _ _ _ Hb) as (_ & _ & A3). destruct (blk_acc _ _ _ Hc) as (_ & B2 & B3).
  assert (X : pars s j = Some (S i)) by congruence.
  specialize (L j i X). rewrite A3, B3 in L. rewrite lge_spec in L. auto.
Qed.

Lemma INV_share_bounds : forall s i b, INV s -> blk s i = Some b ->
  bph b = Filling \/ bph b = Holding -> forall k, 0 <= get k (pool (S i) s) <= get k (bdeb b).
Proof.
  intros s i b I Hb Hp k. pose proof (INV_nested_le_share s i b I Hb k) as N.
  destruct I as (W & C & _ & _ & _ & _ & [_ GI] & _).
  destruct (blk_acc _ _ _ Hb) as (A1 & _ & A3).
  specialize (C (S i) k). destruct (GI i _ A1 k) as (I1 & I2 & _).
  pose proof (out_nonneg s (S i) k W). rewrite A3 in *.
  rewrite I2 in I1 by (destruct Hp as [P | P]; congruence).
  destruct Hp as [P | P]; rewrite P in I1; simpl in I1; lia.
Qed.

(* the interval of the property, for every pool:
   supply - (all blocks between enter and exit + scheduled give-backs) <= available
                                                   <= supply - (blocks holding) *)
Definition active (p : phase) : bool :=
  match p with Idle | Gone => false | _ => true end.

Lemma INV_interval : forall s, INV s -> forall q k,
  get k (insq q s) - (psum active q k (blocks s) + gsum q k (gbq s)) <= get k (pool q s) /\
  get k (pool q s) <= get k (insq q s) - psum is_holding q k (blocks s).
Proof.
  intros s (W & C & _) q k. specialize (C q k). unfold outstanding in C. rewrite osum_psum in C.
  pose proof (wf_deb_nonneg s k W) as D.
  assert (A1 : psum held q k (blocks s) <= psum active q k (blocks s))
    by (apply psum_le; auto; destruct p; simpl; auto; discriminate).
  assert (A2 : psum is_holding q k (blocks s) <= psum held q k (blocks s))
    by (apply psum_le; auto; destruct p; simpl; auto; discriminate).
  pose proof (gsum_nonneg s q k W) as A3.
  lia.
Qed.

(* the supply side of a transition: Capacities never change, and only increase / decrease / set,
   which need a Resources supply, touch the ghost of pool 0 *)
Lemma trans_supply : forall s s', trans s s' ->
  cap s' = cap s /\ (cap s <> None -> insq 0 s' = insq 0 s).
Proof.
  intros s s' T. split; [destruct T; reflexivity|]. intros Hc.
  destruct T; try reflexivity; try congruence; unfold adjust.
  - apply insq_newst.
  - rewrite insq_chins_ne by discriminate. reflexivity.
  - rewrite insq_chins_ne by discriminate. reflexivity.
  - rewrite insq_chins_ne by discriminate. reflexivity.
Qed.

Lemma moved_phase : forall s i i0 b P p p', blk s i0 = Some b ->
  phs s i = Some p -> held p = false ->
  phs (setph i0 P s) i = Some p' ->
  held p' = true -> i = i0 /\ p' = P /\ held (bph b) = false.
Proof.
  intros s i i0 b P p p' Hb Hp Hh Hp' Hh'. rewrite phs_setph, Hp in Hp'.
  destruct (Nat.eqb_spec i i0) as [->|]; [|congruence].
  destruct (blk_acc _ _ _ Hb) as (A1 & _). simpl in Hp'. split; auto. split; congruence.
Qed.

Section Reach.
Variables (n : nat) (c : option levels) (lv : levels).
Hypothesis V : valid_init lv.
Let R (s : state) := reachable_from (init n c lv) s.

Theorem never_negative_thm : forall s, R s -> forall k, 0 <= get k (pool 0 s).
Proof. intros s H. apply (INV_reachable n c lv s V H). Qed.

(* conservation, for every pool (the supply and every borrowed share):
   available = put in - (amounts of blocks in Taking..Emptying + scheduled give-backs) *)
Theorem conservation_thm : forall s, R s -> forall q k,
  get k (pool q s) = get k (insq q s) - outstanding q k s.
Proof. intros s H. apply (INV_reachable n c lv s V H). Qed.

Theorem quiescence_thm : forall s, R s -> quiescent s -> forall k,
  get k (pool 0 s) = get k (insq 0 s).
Proof. intros s H Q. apply (INV_quiescence s (INV_reachable n c lv s V H) Q). Qed.

Theorem claim_never_waits_thm : forall s, R s -> forall i b,
  blk s i = Some b -> bclaim b = true -> bph b <> WaitAvail.
Proof. intros s H. apply (INV_reachable n c lv s V H). Qed.

(* no missed wake-up: a borrower sleeping un-woken cannot be served *)
Theorem no_missed_wakeup_thm : forall s, R s -> forall i b,
  blk s i = Some b -> bph b = WaitAvail -> bwok b = false ->
  lge (nkeys s) (pool (bpar b) s) (bdeb b) = false.
Proof. intros s H. apply (INV_reachable n c lv s V H). Qed.

(* nested borrowing never exceeds the share: everything taken out of the share of block i
   and not yet given back is at most what block i borrowed *)
Theorem nested_le_share_thm : forall s, R s -> forall i b,
  blk s i = Some b -> forall k, outstanding (S i) k s <= get k (bdeb b).
Proof. intros s H i b. apply (INV_nested_le_share s i b (INV_reachable n c lv s V H)). Qed.

Theorem nested_request_le_share_thm : forall s, R s -> forall j cb i b,
  blk s j = Some cb -> bpar cb = S i -> blk s i = Some b ->
  forall k, (k < nkeys s)%nat -> get k (bdeb cb) <= get k (bdeb b).
Proof. intros s H j cb i b. apply (INV_nested_request s j cb i b (INV_reachable n c lv s V H)). Qed.

(* while the owner can use its share (Filling, Holding) the share is within [0, debits] *)
Theorem share_bounds_while_held_thm : forall s, R s -> forall i b,
  blk s i = Some b -> bph b = Filling \/ bph b = Holding ->
  forall k, 0 <= get k (pool (S i) s) <= get k (bdeb b).
Proof. intros s H i b. apply (INV_share_bounds s i b (INV_reachable n c lv s V H)). Qed.

Theorem interval_thm : forall s, R s -> forall k,
  get k (insq 0 s) - (psum active 0 k (blocks s) + gsum 0 k (gbq s)) <= get k (pool 0 s) /\
  get k (pool 0 s) <= get k (insq 0 s) - psum is_holding 0 k (blocks s).
Proof. intros s H. apply (INV_interval s (INV_reachable n c lv s V H)). Qed.

End Reach.

Theorem capacities_supply_const_thm : forall n lv s, valid_init lv ->
  reachable_from (init n (Some lv) lv) s -> cap s = Some lv /\ insq 0 s = lv.
Proof.
  intros n lv s V [tr ->].
  apply (run_inv (fun s => INV s /\ cap s = Some lv /\ insq 0 s = lv)).
  - intros s o (I & C0 & I0). split; [exact (INV_step s o I)|].
    destruct (trans_supply s (fst (step s o))) as [Ec Ei]; [apply step_trans, I|].
    rewrite Ec, Ei; [auto | congruence].
  - split; [apply INV_init, V | auto].
Qed.

(* borrow is atomic: a block passes from "has nothing" to "has its amount" in ONE section, which
   ends in Taking, happens only in a state where the whole amount is available in the parent
   pool, and removes exactly the whole amount from it *)
Theorem borrow_atomic_thm : forall s o i p p', INV s ->
  phs s i = Some p -> held p = false -> phs (fst (step s o)) i = Some p' -> held p' = true ->
  p' = Taking /\ exists q, pars s i = Some q /\
  lge (nkeys s) (pool q s) (debs s i) = true /\
  forall k, get k (pool q (fst (step s o))) = get k (pool q s) - get k (debs s i).
Proof.
  intros s o i p p' I Hp Hh Hp' Hh'.
  assert (T : trans s (fst (step s o))) by apply step_trans, I.
  destruct I as (W & _). remember (fst (step s o)) as s'. clear Heqs'.
  destruct T; unfold adjust, chpool in Hp'; rewrite ?phs_chins, ?phs_setpool, ?phs_push, ?phs_pop in Hp';
    try (destruct (moved_phase _ _ _ _ _ _ _ H Hp Hh Hp' Hh') as (-> & -> & Hb));
    try (rewrite H0 in Hb; discriminate); try discriminate; try congruence.
  - rewrite phs_newst in Hp'. destruct (i <? length (blocks s))%nat; [congruence|].
    destruct (i =? length (blocks s))%nat; inversion Hp'; subst; discriminate.
  - destruct (pmove_facts _ _ _ H0) as (E & _). congruence.
  - destruct (blk_acc _ _ _ H) as (_ & A2 & A3). destruct (wf_blk _ _ _ W H) as (Hq & _ & Hle & _).
    split; auto. exists (bpar b). rewrite A3. repeat split; auto.
    intros k. rewrite gpool_chpool by (simpl; lia). rewrite Nat.eqb_refl, get_lneg. autorewrite with lv. lia.
Qed.

(* claim: on entry it raises ResourcesUnavailable iff the amount is not available, otherwise it
   takes in that very section; it never subscribes *)
Theorem claim_entry_thm : forall s i b, blk s i = Some b -> bclaim b = true -> bph b = Idle ->
  owner_ok s (bpar b) = true ->
  (lge (nkeys s) (pool (bpar b) s) (bdeb b) = false ->
     snd (step s (Step i)) = OUnavail /\ phs (fst (step s (Step i))) i = Some Gone /\
     pools (fst (step s (Step i))) = pools s) /\
  (lge (nkeys s) (pool (bpar b) s) (bdeb b) = true ->
     snd (step s (Step i)) = OTook /\ phs (fst (step s (Step i))) i = Some Taking).
Proof.
  intros s i b Hb Hc Hp Ho. destruct (blk_acc _ _ _ Hb) as (A1 & _ & _).
  unfold blk in Hb. split; intros L; simpl; rewrite Hb, Hp, Ho; unfold try_enter, take; rewrite L, ?Hc; simpl.
  - repeat split; auto. rewrite phs_setph, Nat.eqb_refl, A1. reflexivity.
  - split; auto. unfold chpool. rewrite phs_setpool, phs_setph, Nat.eqb_refl, A1. reflexivity.
Qed.

Theorem giveback_runs_thm : forall s, gbq s <> [] ->
  snd (step s RunGb) = OOk /\ gbq (fst (step s RunGb)) = tl (gbq s).
Proof.
  intros s H. simpl. destruct (gbq s) as [|[i h|q d] r] eqn:E; [congruence| |]; simpl; rewrite E; auto.
Qed.

(* REFUTED as a full-strength statement: "no pool ever goes below zero".  A borrowed SHARE can
   (known finding D18): block 0 borrows 3 of 4, nested block 1 borrows 1 of the share.  A signal
   lands in the first ACQUIRE postponement of the nested block: its give-back of 1 to the share
   is only scheduled; the interrupt is absorbed before it reaches the owner (an `until` between
   the two blocks), the owner leaves on the awaited path and removes its 3 from a share that
   holds 2.  (Since fix D20 an owner left BY the interrupt only schedules its removal, FIFO
   behind the nested give-back, and the share stays >= 0.) *)
Definition single_fault : list op :=
  [New 0 [3] false; Step 0; Step 0; Step 0; New 1 [1] false; Step 1; Signal 1; Step 0].

Lemma negative_run_refutes : forall s0 tr q k, get k (pool q (run s0 tr)) < 0 ->
  ~ (forall s, reachable_from s0 s -> forall q k, 0 <= get k (pool q s)).
Proof. intros s0 tr q k Hneg H. specialize (H (run s0 tr) (ex_intro _ tr eq_refl) q k). lia. Qed.

Theorem share_negative_after_single_fault_refuted :
  ~ (forall s, reachable_from (init 1 (Some [4]) [4]) s -> forall q k, 0 <= get k (pool q s)).
Proof. apply (negative_run_refutes _ single_fault 1%nat 0%nat). reflexivity. Qed.

(* ... the same with the signal landing in the first RELEASE postponement of the nested block,
   which was leaving normally *)
Definition release_fault : list op :=
  [New 0 [3] false; Step 0; Step 0; Step 0; New 1 [1] false; Step 1; Step 1; Step 1;
   Step 1; Signal 1; Step 0].

Theorem share_negative_after_release_fault_refuted :
  ~ (forall s, reachable_from (init 1 (Some [4]) [4]) s -> forall q k, 0 <= get k (pool q s)).
Proof. apply (negative_run_refutes _ release_fault 1%nat 0%nat). reflexivity. Qed.

(* since D20: a task signalled (even repeatedly) inside a nested borrow, with nothing absorbing the
   interrupt between the blocks, keeps its share >= 0: everything is scheduled FIFO *)
Definition interrupt_unwinds : list op :=
  [New 0 [3] false; Step 0; Step 0; Step 0; New 1 [1] false; Step 1; Step 1; Step 1;
   Signal 1; Signal 0].

(* Capacities(4): A borrows 3, B (wants 2) waits; A is cancelled while its first acquire
   postponement is pending (Taking): the give-backs run, B is woken and takes *)
Definition demo : list op :=
  [New 0 [3] false; New 0 [2] false; Step 0; Step 1; Signal 0; RunGb; RunGb; Step 1; Step 1; Step 1].
