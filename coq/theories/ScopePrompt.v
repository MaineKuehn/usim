(** C05, "promptly": the failure of a child of an open scope ends the scope within the time step of that failure.
    Stated over the layer-P scope protocol (ScopeProto.v), for every run of labels after the failure.

    [aborting s t]: the scope is on its way out since time [t] - its own cancellation is queued for the owner who is
    still in the block (Tick is disabled), or the synchronous _close_scope runs at [t], or the block was left at [t].
    It is one of the two ways in which the clock is [pinned] (ScopeProtoProps.v). *)
Require Import List Bool Arith.
From Usim Require Import ScopeProto ScopeProtoProps.
Import ListNotations.

Definition aborting (s : state) (t : nat) : Prop :=
  match ph s with
  | Exited _ _ => exited_at s = Some t
  | Closing _ => now s = t
  | _ => now s = t /\ cs s = Scheduled
  end.

Lemma aborting_pinned : forall s t, aborting s t -> pinned s t.
Proof. unfold aborting, pinned. intros s t. destruct (ph s); auto; intros [? ?]; auto. Qed.

Lemma child_fail_inv : forall s i s1, step s (ChildFail i) = Some s1 ->
  exists c, nth_error (kids s) i = Some c /\ s1 = work (sched_cs (set_kids (upd i (fin Failed c) (kids s)) s)).
Proof.
  intros s i s1 H. unfold step, on_child, running_only in H.
  destruct (isclosing (ph s)); [discriminate|].
  destruct (nth_error (kids s) i) as [c|]; [|discriminate].
  destruct (st c); try discriminate. inversion H. eauto.
Qed.

Lemma child_fail_aborting : forall k s i s1, reachable k s -> interruptable s = true ->
  step s (ChildFail i) = Some s1 -> aborting s1 (now s) /\ isexited (ph s1) = false.
Proof.
  intros k s i s1 R I H. pose proof (i_int _ (reachable_inv _ _ R)) as A. rewrite I in A.
  destruct (child_fail_inv _ _ _ H) as (c&_&->). unfold aborting, sched_cs. simpl. rewrite I. simpl.
  destruct (ph s); try discriminate; auto.
Qed.

Theorem child_failure_prompt_thm : forall k s i s1 ls s2, reachable k s -> interruptable s = true ->
  step s (ChildFail i) = Some s1 -> run s1 ls = Some s2 ->
  (isexited (ph s2) = false /\ now s2 = now s /\ step s2 Tick = None) \/
  (exists c o, ph s2 = Exited c o /\ exited_at s2 = Some (now s)).
Proof.
  intros k s i s1 ls s2 R I H1 H2.
  destruct (child_fail_aborting _ _ _ _ R I H1) as [A _].
  exact (pinned_exit _ _ (pinned_run _ _ _ _ (aborting_pinned _ _ A) H2)).
Qed.

(** the failed child is reported: however the block is left, the outcome is the children's failure *)
Theorem child_failure_reported_thm : forall k s i s1 ls s2 c o, reachable k s ->
  step s (ChildFail i) = Some s1 -> run s1 ls = Some s2 -> ph s2 = Exited c o ->
  o = outcome_of c true.
Proof.
  intros k s i s1 ls s2 c o R H1 H2 P.
  pose proof (reachable_run _ _ _ _ (r_step _ _ _ _ R H1) H2) as R2.
  pose proof (i_out _ (reachable_inv _ _ R2)) as O. unfold oinv in O. rewrite P in O. subst o. f_equal.
  destruct (child_fail_inv _ _ _ H1) as (c0&N0&E).
  assert (N : nth_error (kids s1) i = Some (fin Failed c0)).
  { rewrite E. simpl. rewrite kids_sched_cs. simpl. rewrite nth_error_upd, Nat.eqb_refl, N0. reflexivity. }
  destruct (done_stable_run _ _ _ _ _ H2 N eq_refl) as (x'&N'&S'&_).
  apply existsb_exists. exists x'. split; [exact (nth_error_In _ _ N')|]. unfold isfailed. rewrite S'. reflexivity.
Qed.

(** both halves together with containment: the remaining children were aborted within the time step of the failure *)
Theorem first_failure_aborts_all_thm : forall k s i s1 ls s2 c o, reachable k s -> interruptable s = true ->
  step s (ChildFail i) = Some s1 -> run s1 ls = Some s2 -> ph s2 = Exited c o ->
  exited_at s2 = Some (now s) /\ o = outcome_of c true /\
  Forall (fun x => isdone x = true) (kids s2) /\
  (forall j, step s2 (ChildStart j) = None /\ step s2 (ChildStep j) = None).
Proof.
  intros k s i s1 ls s2 c o R I H1 H2 P.
  pose proof (reachable_run _ _ _ _ (r_step _ _ _ _ R H1) H2) as R2.
  destruct (child_failure_prompt_thm _ _ _ _ _ _ R I H1 H2) as [(E&_)|(c'&o'&P'&X)].
  - rewrite P in E. discriminate.
  - split; [exact X|]. split; [exact (child_failure_reported_thm _ _ _ _ _ _ _ _ R H1 H2 P)|].
    destruct (contained_thm _ _ _ _ R2 P) as (D&N&_). split; [exact D|].
    intros j. destruct (N j) as (A&B&_). split; assumption.
Qed.

(** non-vacuity *)
Example prompt_example :
  exists s s1 s2, reachable Plain s /\ interruptable s = true /\ now s = 2 /\
    step s (ChildFail 0) = Some s1 /\
    run s1 [ChildStep 1; DeliverCancelSelf; CloseChild 1 false; FinishClose] = Some s2 /\
    ph s2 = Exited COwnCancel ChildExc /\ exited_at s2 = Some 2.
Proof.
  eexists. eexists. eexists. split.
  - apply (reachable_of_run Plain [Spawn false; Spawn false; ChildStart 0; ChildStart 1; BodyStep; Tick; Tick]).
    vm_compute. reflexivity.
  - split; [reflexivity|]. split; [reflexivity|]. split; [vm_compute; reflexivity|].
    split; [vm_compute; reflexivity|]. split; reflexivity.
Qed.
