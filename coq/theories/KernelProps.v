(** Theorems about the event loop, for ARBITRARY clients (any program, any schedule of requests).

    The invariant [inv] says that the queue, read front to back ([queued]), is strictly sorted by
    (due time, schedule order) and lies between the current time and the next sequence number
    ([inv_sorted], [inv_bounds]).  A step of the loop removes a revoked prefix and the head of what is left
    ([next_queue]); a request appends at most one activation that is later than everything queued
    ([queued_kapply], [knew_fresh]).  The theorems about executions follow from these three facts. *)
From Coq Require Import List Bool Lia Sorted.
From Usim Require Import XTime Kernel ListFacts.
Import ListNotations.

Ltac splits := repeat match goal with |- _ /\ _ => split end.

Definition klt (a b : activation) : Prop :=
  xlt (a_due a) (a_due b) \/ (a_due a = a_due b /\ a_seq a < a_seq b).

Lemma klt_trans a b c : klt a b -> klt b c -> klt a c.
Proof.
  unfold klt. intros [H1|[H1 H1']] [H2|[H2 H2']].
  - left. eapply xlt_trans; eauto.
  - left. rewrite <- H2. exact H1.
  - left. rewrite H1. exact H2.
  - right. split; [congruence | lia].
Qed.

Lemma klt_irrefl a : ~ klt a a.
Proof. intros [H|[_ H]]; [exact (xlt_irrefl _ H) | lia]. Qed.

Lemma klt_of_le a b : xle (a_due a) (a_due b) -> a_seq a < a_seq b -> klt a b.
Proof.
  intros H S. destruct (xle_total (a_due b) (a_due a)) as [H'|H']; [right | left; exact H'].
  split; [apply xle_antisym; assumption | exact S].
Qed.

Definition seq_lt (a b : activation) : Prop := a_seq a < a_seq b.

Definition bucket_ok (k : xtime) (n : nat) (vs : list activation) : Prop :=
  Forall (fun a => a_due a = k /\ a_seq a < n) vs /\ StronglySorted seq_lt vs.

Fixpoint keys_ok (lo : xtime) (n : nat) (f : list (xtime * list activation)) : Prop :=
  match f with
  | [] => True
  | (k, vs) :: r => xlt lo k /\ bucket_ok k n vs /\ keys_ok k n r
  end.

Definition inv (l : loop) : Prop :=
  bucket_ok (now l) (nseq l) (pending l) /\ keys_ok (now l) (nseq l) (future l).

Definition queued (l : loop) : list activation := pending l ++ concat (map snd (future l)).

Lemma bucket_ok_in k n vs a : bucket_ok k n vs -> In a vs -> a_due a = k /\ a_seq a < n.
Proof. intros [H _]. rewrite Forall_forall in H. apply H. Qed.

Lemma bucket_ok_mono k n n' vs : n <= n' -> bucket_ok k n vs -> bucket_ok k n' vs.
Proof.
  intros Hn [H1 H2]. split; auto. eapply Forall_impl; [|exact H1]. cbn. intros a [? ?]. split; auto. lia.
Qed.

Lemma keys_ok_mono lo n n' f : n <= n' -> keys_ok lo n f -> keys_ok lo n' f.
Proof.
  revert lo. induction f as [|[k vs] r IH]; cbn; auto. intros lo Hn (H1 & H2 & H3).
  split; [auto|]. split; [eapply bucket_ok_mono; eauto | apply IH; auto].
Qed.

Lemma keys_ok_weaken lo lo' n f : xle lo' lo -> keys_ok lo n f -> keys_ok lo' n f.
Proof.
  destruct f as [|[k vs] r]; cbn; auto. intros H (H1 & H2 & H3). splits; auto.
  eapply xle_lt_trans; eauto.
Qed.

Lemma bucket_ok_single k n v : a_due v = k -> a_seq v < n -> bucket_ok k n [v].
Proof. intros H1 H2. split; [constructor; auto | constructor; constructor]. Qed.

Lemma bucket_ok_app k n vs ws :
  bucket_ok k n (vs ++ ws) <->
  bucket_ok k n vs /\ bucket_ok k n ws /\ forall x y, In x vs -> In y ws -> seq_lt x y.
Proof. unfold bucket_ok. rewrite Forall_app, StronglySorted_app. tauto. Qed.

Lemma bucket_ok_snoc k n vs v :
  bucket_ok k n vs -> a_due v = k -> a_seq v = n -> bucket_ok k (S n) (vs ++ [v]).
Proof.
  intros H Hd Hs. apply bucket_ok_app. split; [apply (bucket_ok_mono k n); auto|].
  split; [apply bucket_ok_single; auto; lia|].
  intros x y Hx [<-|[]]. unfold seq_lt. destruct (bucket_ok_in _ _ _ _ H Hx). lia.
Qed.

Lemma keys_ok_all_later lo n f b :
  keys_ok lo n f -> In b (concat (map snd f)) -> xlt lo (a_due b) /\ a_seq b < n.
Proof.
  revert lo. induction f as [|[k vs] r IH]; cbn; intros lo H Hin; [tauto|].
  destruct H as (H1 & H2 & H3). apply in_app_iff in Hin. destruct Hin as [Hin|Hin].
  - destruct (bucket_ok_in _ _ _ _ H2 Hin) as [-> Hs]. auto.
  - destruct (IH _ H3 Hin) as [H4 H5]. split; auto. eapply xlt_trans; eauto.
Qed.

Lemma bucket_sorted k n vs : bucket_ok k n vs -> StronglySorted klt vs.
Proof.
  intros H. apply (StronglySorted_impl seq_lt); [|apply H]. intros x y Hx Hy L. right. split; [|exact L].
  destruct (bucket_ok_in _ _ _ _ H Hx), (bucket_ok_in _ _ _ _ H Hy). congruence.
Qed.

Lemma buckets_sorted k n vs r :
  bucket_ok k n vs -> keys_ok k n r -> StronglySorted klt (vs ++ concat (map snd r)).
Proof.
  revert k vs. induction r as [|[k' vs'] r IH]; intros k vs Hb Hr; apply StronglySorted_app.
  - split; [exact (bucket_sorted _ _ _ Hb)|]. split; [constructor | contradiction].
  - split; [exact (bucket_sorted _ _ _ Hb)|]. split; [apply (IH k'); apply Hr|].
    intros x y Hx Hy. left. destruct (bucket_ok_in _ _ _ _ Hb Hx) as [-> _].
    exact (proj1 (keys_ok_all_later _ _ _ _ Hr Hy)).
Qed.

Lemma inv_sorted l : inv l -> StronglySorted klt (queued l).
Proof. intros [Hp Hf]. exact (buckets_sorted _ _ _ _ Hp Hf). Qed.

Lemma inv_bounds l a : inv l -> In a (queued l) -> xle (now l) (a_due a) /\ a_seq a < nseq l.
Proof.
  intros [Hp Hf] H. apply in_app_iff in H as [H|H].
  - destruct (bucket_ok_in _ _ _ _ Hp H) as [-> Hs]. split; [apply xle_refl | exact Hs].
  - destruct (keys_ok_all_later _ _ _ _ Hf H) as [Hd Hs]. split; [apply xlt_le, Hd | exact Hs].
Qed.

Lemma wq_push_ok lo n k v f :
  keys_ok lo n f -> xlt lo k -> a_due v = k -> a_seq v = n -> keys_ok lo (S n) (wq_push k v f).
Proof.
  assert (Hn : n <= S n) by lia.
  revert lo. induction f as [|[k' vs] r IH]; cbn; intros lo H Hk Hd Hs.
  - splits; auto. apply bucket_ok_single; auto. lia.
  - destruct H as (H1 & H2 & H3).
    destruct (xltb k k') eqn:E1; [|destruct (xeqb k k') eqn:E2]; cbn.
    + splits; auto.
      * apply bucket_ok_single; auto. lia.
      * exact (bucket_ok_mono _ _ _ _ Hn H2).
      * exact (keys_ok_mono _ _ _ _ Hn H3).
    + apply xeqb_eq in E2. subst k'. splits; auto.
      * apply bucket_ok_snoc; auto.
      * exact (keys_ok_mono _ _ _ _ Hn H3).
    + splits; auto.
      * exact (bucket_ok_mono _ _ _ _ Hn H2).
      * apply IH; auto. exact (xlt_of_ltb_eqb_false _ _ E1 E2).
Qed.

Lemma in_wq_push k v f a :
  In a (concat (map snd (wq_push k v f))) <-> v = a \/ In a (concat (map snd f)).
Proof.
  induction f as [|[k' vs] r IH]; cbn.
  - tauto.
  - destruct (xltb k k'); [cbn; tauto|]. destruct (xeqb k k'); cbn.
    + rewrite !in_app_iff. cbn. tauto.
    + rewrite !in_app_iff, IH. tauto.
Qed.

(** the activation a request adds to the queue, if any *)
Definition knew (l : loop) (o : kop) : option activation :=
  match o with
  | KNow a s => Some {| a_tgt := a; a_sig := s; a_seq := nseq l; a_due := now l |}
  | KAfter d a s =>
      if xpos d && xltb (now l) (xadd (now l) d)
      then Some {| a_tgt := a; a_sig := s; a_seq := nseq l; a_due := xadd (now l) d |} else None
  | KAt t a s =>
      if xltb (now l) t then Some {| a_tgt := a; a_sig := s; a_seq := nseq l; a_due := t |} else None
  | KRevoke _ | KMark _ => None
  end.

Lemma kapply_knew l o :
  let l' := kapply l o in
  now l' = now l /\ (forall s, mem_sid s (revoked l) = true -> mem_sid s (revoked l') = true) /\
  match knew l o with
  | Some b =>
      a_seq b = nseq l /\ nseq l' = S (nseq l) /\
      ((a_due b = now l /\ pending l' = pending l ++ [b] /\ future l' = future l) \/
       (xlt (now l) (a_due b) /\ pending l' = pending l /\ future l' = wq_push (a_due b) b (future l)))
  | None => nseq l' = nseq l /\ pending l' = pending l /\ future l' = future l
  end.
Proof.
  destruct o as [a s|d a s|t a s|s|s]; cbn [kapply knew].
  - cbn. splits; auto.
  - destruct (xpos d && xltb (now l) (xadd (now l) d)) eqn:E; cbn; splits; auto.
    apply andb_prop in E. right. splits; auto. apply E.
  - destruct (xltb (now l) t) eqn:E; cbn; splits; auto.
  - cbn. splits; auto. intros s0 H. unfold mem_sid in *. cbn. rewrite H. apply orb_true_r.
  - cbn. splits; auto.
Qed.

Lemma queued_kapply l o b : In b (queued (kapply l o)) <-> In b (queued l) \/ knew l o = Some b.
Proof.
  unfold queued. destruct (kapply_knew l o) as (_ & _ & H). destruct (knew l o) as [c|].
  - destruct H as (_ & _ & [(_ & -> & ->)|(_ & -> & ->)]); rewrite !in_app_iff, ?in_wq_push; cbn [In];
      intuition congruence.
  - destruct H as (_ & -> & ->). intuition congruence.
Qed.

Lemma knew_fresh l o b : knew l o = Some b -> a_seq b = nseq l /\ xle (now l) (a_due b).
Proof.
  intros E. destruct (kapply_knew l o) as (_ & _ & H). rewrite E in H.
  destruct H as (Hs & _ & [(-> & _)|(Hd & _)]); split; auto; [apply xle_refl | apply xlt_le, Hd].
Qed.

Lemma kapply_frame l o : now (kapply l o) = now l /\ nseq l <= nseq (kapply l o).
Proof.
  destruct (kapply_knew l o) as (Hn & _ & H). split; [exact Hn|].
  destruct (knew l o); [destruct H as (_ & -> & _) | destruct H as (-> & _)]; auto.
Qed.

Lemma kapply_inv l o : inv l -> inv (kapply l o).
Proof.
  assert (Hn : nseq l <= S (nseq l)) by lia.
  intros [Hp Hf]. unfold inv. destruct (kapply_knew l o) as (-> & _ & H). destruct (knew l o) as [b|].
  - destruct H as (Hs & -> & [(Hd & -> & ->)|(Hd & -> & ->)]).
    + split; [apply bucket_ok_snoc; auto | exact (keys_ok_mono _ _ _ _ Hn Hf)].
    + split; [exact (bucket_ok_mono _ _ _ _ Hn Hp) | apply wq_push_ok; auto].
  - destruct H as (-> & -> & ->). auto.
Qed.

Lemma kapply_all_now ops l : now (kapply_all l ops) = now l.
Proof.
  apply (fold_left_inv kapply (fun l' => now l' = now l)); [|reflexivity].
  intros s o <-. apply kapply_frame.
Qed.

Lemma kapply_all_inv ops l : inv l -> inv (kapply_all l ops).
Proof. apply (fold_left_inv kapply inv). intros s o. apply kapply_inv. Qed.

(** [b] is queued in [l] or not scheduled yet *)
Definition upcoming (l : loop) (b : activation) : Prop :=
  In b (queued l) \/ (nseq l <= a_seq b /\ xle (now l) (a_due b)).

Lemma upcoming_kapply l o b : upcoming (kapply l o) b -> upcoming l b.
Proof.
  destruct (kapply_frame l o) as [Hn Hs]. intros [H|[H1 H2]].
  - apply queued_kapply in H as [H|H]; [left; exact H | right].
    destruct (knew_fresh _ _ _ H) as [-> Hd]. auto.
  - right. rewrite Hn in H2. split; [lia | exact H2].
Qed.

Lemma upcoming_kapply_all ops : forall l b, upcoming (kapply_all l ops) b -> upcoming l b.
Proof. induction ops as [|o ops IH]; intros l b H; [exact H|]. apply (upcoming_kapply l o), IH, H. Qed.

Lemma kapply_queued l o a :
  In a (queued (kapply l o)) ->
  In a (queued l) \/ (nseq l <= a_seq a /\ xle (now l) (a_due a)).
Proof. intros H. apply (upcoming_kapply l o). left. exact H. Qed.

(** [schedule(delay=d)] is due exactly [d] after now, [schedule()] exactly now *)
Lemma kafter_due l d t s b :
  xpos d && xltb (now l) (xadd (now l) d) = true ->
  In b (queued (kapply l (KAfter d t s))) ->
  In b (queued l) \/ (a_tgt b = t /\ a_sig b = s /\ a_due b = xadd (now l) d /\ a_seq b = nseq l).
Proof.
  intros H Hb. apply queued_kapply in Hb as [Hb|Hb]; [left; exact Hb | right].
  cbn [knew] in Hb. rewrite H in Hb. injection Hb as <-. auto.
Qed.

Lemma know_due l t s b :
  In b (queued (kapply l (KNow t s))) ->
  In b (queued l) \/ (a_tgt b = t /\ a_sig b = s /\ a_due b = now l /\ a_seq b = nseq l).
Proof. intros Hb. apply queued_kapply in Hb as [Hb|[= <-]]; [left; exact Hb | right; auto]. Qed.

Lemma skip_revoked_spec rv p a rest :
  skip_revoked rv p = Some (a, rest) ->
  exists pre, p = pre ++ a :: rest /\ Forall (fun b => is_revoked rv b = true) pre /\ is_revoked rv a = false.
Proof.
  revert a rest. induction p as [|x p IH]; cbn; intros a rest H; [discriminate|].
  destruct (is_revoked rv x) eqn:E.
  - destruct (IH _ _ H) as (pre & -> & H2 & H3). exists (x :: pre). auto.
  - injection H as <- <-. exists []. auto.
Qed.

Lemma skip_revoked_none rv p : skip_revoked rv p = None <-> Forall (fun b => is_revoked rv b = true) p.
Proof.
  induction p as [|x p IH]; cbn.
  - split; auto.
  - destruct (is_revoked rv x) eqn:E.
    + rewrite IH. split; intro H; [constructor; auto | inversion H; auto].
    + split; [discriminate|]. intro H. inversion H; congruence.
Qed.

Lemma pop_future_split rv f k a rest f' :
  pop_future rv f = Some (k, a, rest, f') ->
  exists pre, concat (map snd f) = pre ++ a :: rest ++ concat (map snd f') /\
              Forall (fun b => is_revoked rv b = true) pre /\ is_revoked rv a = false.
Proof.
  induction f as [|[k' vs] r IH]; cbn; [discriminate|].
  destruct (skip_revoked rv vs) as [[a' rest']|] eqn:E.
  - intros [= <- <- <- <-]. destruct (skip_revoked_spec _ _ _ _ E) as (pre & -> & H2 & H3).
    exists pre. rewrite <- app_assoc. auto.
  - intros H. destruct (IH H) as (pre & -> & H2 & H3). exists (vs ++ pre). rewrite <- app_assoc.
    splits; auto. apply Forall_app. split; [apply skip_revoked_none, E | exact H2].
Qed.

Lemma pop_future_none rv f : pop_future rv f = None <-> Forall (fun b => is_revoked rv b = true) (concat (map snd f)).
Proof.
  induction f as [|[k vs] r IH]; cbn; [split; auto|].
  rewrite Forall_app, <- IH, <- skip_revoked_none.
  destruct (skip_revoked rv vs) as [[a rest]|]; [split; [discriminate | intros [[=] _]] | tauto].
Qed.

Lemma pop_future_ok rv n f : forall k0 b0 k a rest f',
  bucket_ok k0 n b0 -> keys_ok k0 n f -> pop_future rv ((k0, b0) :: f) = Some (k, a, rest, f') ->
  bucket_ok k n (a :: rest) /\ keys_ok k n f' /\ ((k = k0 /\ length rest < length b0) \/ xlt k0 k).
Proof.
  induction f as [|[k1 b1] f IH]; intros k0 b0 k a rest f' Hb Hf H; cbn [pop_future] in H;
    (destruct (skip_revoked rv b0) as [[a' rest']|] eqn:E;
     [injection H as <- <- <- <-; destruct (skip_revoked_spec _ _ _ _ E) as (pre & -> & _);
      apply bucket_ok_app in Hb; splits;
      [apply Hb | exact Hf | left; split; [reflexivity | rewrite app_length; cbn; lia]]|]).
  - discriminate.
  - destruct Hf as (Hk & Hb1 & Hf1). destruct (IH _ _ _ _ _ _ Hb1 Hf1 H) as (I1 & I2 & I3). splits; auto.
    right. destruct I3 as [[-> _]|I3]; [exact Hk | exact (xlt_trans _ _ _ Hk I3)].
Qed.

(** the double loop of [_run_events] is one pop over the current bucket followed by the future ones *)
Lemma next_pop l :
  match next l with
  | Some (a, l') =>
      pop_future (revoked l) ((now l, pending l) :: future l) = Some (now l', a, pending l', future l') /\
      revoked l' = revoked l /\ nseq l' = nseq l
  | None => pop_future (revoked l) ((now l, pending l) :: future l) = None
  end.
Proof.
  unfold next. cbn [pop_future]. destruct (skip_revoked (revoked l) (pending l)) as [[a rest]|]; [auto|].
  destruct (pop_future (revoked l) (future l)) as [[[[k a] rest] f']|]; auto.
Qed.

Lemma next_split l a l' :
  next l = Some (a, l') ->
  exists pre, queued l = pre ++ a :: queued l' /\
              Forall (fun b => is_revoked (revoked l) b = true) pre /\ is_revoked (revoked l) a = false.
Proof. intros E. pose proof (next_pop l) as P. rewrite E in P. exact (pop_future_split _ _ _ _ _ _ (proj1 P)). Qed.

(** C15: the run ends exactly when no unrevoked activation is queued *)
Theorem next_none_iff_quiescent l :
  next l = None <-> Forall (fun b => is_revoked (revoked l) b = true) (queued l).
Proof.
  change (queued l) with (concat (map snd ((now l, pending l) :: future l))). rewrite <- pop_future_none.
  pose proof (next_pop l) as P. destruct (next l) as [[a l']|]; [destruct P as [P _]|]; rewrite P;
    [split; discriminate | tauto].
Qed.

Lemma next_step l a l' :
  inv l -> next l = Some (a, l') ->
  inv l' /\ now l' = a_due a /\ revoked l' = revoked l /\ nseq l' = nseq l /\
  ((now l' = now l /\ length (pending l') < length (pending l)) \/ xlt (now l) (now l')).
Proof.
  intros [Hp Hf] E. pose proof (next_pop l) as P. rewrite E in P. destruct P as (P & Hr & Hn).
  destruct (pop_future_ok _ _ _ _ _ _ _ _ _ Hp Hf P) as (Hb & Hf' & Hc).
  apply (bucket_ok_app _ _ [a]) in Hb as (Ha & Hb & _).
  unfold inv. rewrite Hn. splits; auto. symmetry. apply (bucket_ok_in _ _ _ _ Ha). left. reflexivity.
Qed.

Lemma next_queue l a l' :
  inv l -> next l = Some (a, l') ->
  exists pre, queued l = pre ++ a :: queued l' /\ Forall (fun b => is_revoked (revoked l) b = true) pre /\
              is_revoked (revoked l) a = false /\ Forall (klt a) (queued l').
Proof.
  intros Hinv H. destruct (next_split _ _ _ H) as (pre & Hq & Hpre & Ha). exists pre. splits; auto.
  apply inv_sorted in Hinv. rewrite Hq in Hinv. apply StronglySorted_app in Hinv as (_ & Hs & _).
  apply StronglySorted_inv in Hs. apply Hs.
Qed.

(** K2 + C20 kernel lemma: the activation that executes is the minimum of everything queued and not
    revoked.  Hence all work for time t runs before the clock passes t, and an activity that re-queues
    itself at the tail of the current time step (postpone) is resumed only after every activation
    queued before it has executed or been revoked. *)
Theorem next_is_minimum l a l' :
  inv l -> next l = Some (a, l') ->
  forall b, In b (queued l) -> is_revoked (revoked l) b = false -> b = a \/ klt a b.
Proof.
  intros Hinv H b Hb Hr. destruct (next_queue _ _ _ Hinv H) as (pre & Hq & Hpre & _ & Hlt).
  rewrite Forall_forall in Hpre, Hlt. rewrite Hq in Hb. apply in_app_iff in Hb as [Hb|[Hb|Hb]]; auto.
  rewrite (Hpre _ Hb) in Hr. discriminate.
Qed.

Lemma upcoming_next l a l' b :
  inv l -> next l = Some (a, l') -> upcoming l' b -> upcoming l b /\ klt a b.
Proof.
  intros Hinv H Hb. destruct (next_queue _ _ _ Hinv H) as (pre & Hq & _ & _ & Hlt).
  destruct (next_step _ _ _ Hinv H) as (_ & Hd & _ & Hn & _).
  assert (Ha : In a (queued l)) by (rewrite Hq; apply in_app_iff; right; left; reflexivity).
  destruct (inv_bounds _ _ Hinv Ha) as [Hle Hs]. rewrite <- Hd in Hle.
  destruct Hb as [Hb|[Hb1 Hb2]].
  - split; [left; rewrite Hq; apply in_app_iff; right; right; exact Hb|].
    rewrite Forall_forall in Hlt. exact (Hlt _ Hb).
  - rewrite Hn in Hb1. split; [right; split; [exact Hb1 | exact (xle_trans _ _ _ Hle Hb2)]|].
    rewrite Hd in Hb2. apply klt_of_le; [exact Hb2 | lia].
Qed.

Section Client.
  Variable S : Type.
  Variable client : S -> loop -> activation -> S * list kop.

  Definition ev_lt (x y : exec_event) : Prop := klt (e_act x) (e_act y).

  Lemma kexec_spec n : forall st l,
    inv l ->
    Forall (fun e => e_time e = a_due (e_act e) /\ upcoming l (e_act e)) (kexec S client n st l) /\
    StronglySorted ev_lt (kexec S client n st l).
  Proof.
    induction n as [|n IH]; cbn; intros st l Hinv; [split; constructor|].
    destruct (next l) as [[a l']|] eqn:E; [|split; constructor]. destruct (client st l' a) as [st' ops].
    destruct (IH st' _ (kapply_all_inv ops _ (proj1 (next_step _ _ _ Hinv E)))) as [HF HS].
    assert (HF' : Forall (fun e => e_time e = a_due (e_act e) /\ upcoming l (e_act e) /\ klt a (e_act e))
                         (kexec S client n st' (kapply_all l' ops))).
    { eapply Forall_impl; [|exact HF]. cbn. intros e [He Hu]. split; [exact He|].
      apply (upcoming_next _ _ _ _ Hinv E), (upcoming_kapply_all ops), Hu. }
    split; constructor.
    - cbn. split; [apply (next_step _ _ _ Hinv E)|]. left.
      destruct (next_split _ _ _ E) as (pre & -> & _). apply in_app_iff. right. left. reflexivity.
    - eapply Forall_impl; [|exact HF']. cbn. tauto.
    - exact HS.
    - eapply Forall_impl; [|exact HF']. unfold ev_lt. cbn. tauto.
  Qed.

  (** K5 / C01: every activation executes at exactly its due time, and never before the current time *)
  Theorem exec_at_due n st l :
    inv l -> Forall (fun e => e_time e = a_due (e_act e) /\ xle (now l) (e_time e)) (kexec S client n st l).
  Proof.
    intros H. eapply Forall_impl; [|apply (kexec_spec n st l H)]. cbn. intros e [-> [Hu|[_ Hu]]].
    - split; [reflexivity | apply (inv_bounds _ _ H Hu)].
    - split; [reflexivity | exact Hu].
  Qed.

  (** K1 + K3 + K6 / C01, C02: the executed sequence is strictly increasing in (due time, schedule order):
      time never decreases, activations for one time execute in the order of their schedule calls, and
      no activation executes twice *)
  Theorem exec_sorted n : forall st l, inv l -> StronglySorted ev_lt (kexec S client n st l).
  Proof. intros st l H. apply (kexec_spec n st l H). Qed.

  (** K1 *)
  Corollary time_monotone n st l :
    inv l -> StronglySorted (fun x y => xle (e_time x) (e_time y)) (kexec S client n st l).
  Proof.
    intros H. pose proof (exec_at_due n st l H) as Hd. rewrite Forall_forall in Hd.
    apply (StronglySorted_impl ev_lt); [|apply exec_sorted, H].
    intros x y Hx Hy. destruct (Hd x Hx) as [-> _], (Hd y Hy) as [-> _].
    intros [Hlt|[-> _]]; [apply xlt_le, Hlt | apply xle_refl].
  Qed.
End Client.

Lemma loop_init_inv n start : inv (loop_init n start).
Proof.
  unfold inv, loop_init. cbn. split; [|exact I].
  assert (G : forall m i, bucket_ok start (i + m) (root_activations m i start) /\
                          Forall (fun a => i <= a_seq a) (root_activations m i start)).
  { induction m as [|m IH]; cbn; intros i.
    - split; [split; constructor | constructor].
    - destruct (IH (S i)) as [[I1 I2] I3]. replace (i + S m) with (S i + m) by lia.
      split; [split|]; constructor; cbn.
      + split; [reflexivity | lia].
      + exact I1.
      + exact I2.
      + exact I3.
      + apply le_n.
      + eapply Forall_impl; [|exact I3]. intros a Ha. cbn in Ha. lia. }
  apply (G n 0).
Qed.
