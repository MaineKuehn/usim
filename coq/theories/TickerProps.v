(** C14 -- proofs about the model of interval()/delay() in Ticker.v *)
From Coq Require Import List ZArith Bool Lia.
From Usim Require Import Ticker.
Import ListNotations.
Open Scope Z_scope.

Definition step_how (last p now : Z) : how :=
  if 0 <? last + p - now then Suspend (last + p - now) else Postpone.

(** unlike [cbn], this needs no case analysis of [ds] first *)
Lemma interval_loop_eq H p last now ds :
  interval_loop H p last now ds =
    if last + p - now <? 0 then ([], Exceeded)
    else
      let h := step_how last p now in
      let t := wait h now in
      if is_suspend h && cut H t then ([], Interrupted)
      else
        match ds with
        | [] => ([mkTick t t h], Completed)
        | d :: ds' =>
            if (0 <? d) && cut H (t + d) then ([mkTick t t h], Interrupted)
            else let '(l, o) := interval_loop H p t (t + d) ds' in (mkTick t t h :: l, o)
        end.
Proof. destruct ds; reflexivity. Qed.

Lemma delay_loop_eq H h now ds :
  delay_loop H h now ds =
    let t := wait h now in
    if is_suspend h && cut H t then ([], Interrupted)
    else
      match ds with
      | [] => ([mkTick t t h], Completed)
      | d :: ds' =>
          if (0 <? d) && cut H (t + d) then ([mkTick t t h], Interrupted)
          else let '(l, o) := delay_loop H h (t + d) ds' in (mkTick t t h :: l, o)
      end.
Proof. destruct ds; reflexivity. Qed.

Lemma interval_loop_exceeded H p last now ds :
  last + p - now < 0 -> interval_loop H p last now ds = ([], Exceeded).
Proof.
  intros Hr. rewrite interval_loop_eq. destruct (Z.ltb_spec (last + p - now) 0); [reflexivity|lia].
Qed.

Lemma step_date last p now : 0 <= last + p - now -> wait (step_how last p now) now = last + p.
Proof.
  intros Hr. unfold step_how. destruct (Z.ltb_spec 0 (last + p - now)); cbn [wait]; lia.
Qed.

Lemma step_how_yields last p now :
  step_how last p now = Postpone \/ exists r, 0 < r /\ step_how last p now = Suspend r.
Proof.
  unfold step_how. destruct (Z.ltb_spec 0 (last + p - now)); [right; eexists; split; [eassumption|reflexivity]|left; reflexivity].
Qed.

Lemma interval_loop_step p last now ds :
  0 <= last + p - now ->
  interval_loop None p last now ds =
    let tk := mkTick (last + p) (last + p) (step_how last p now) in
    match ds with
    | [] => ([tk], Completed)
    | d :: ds' => let '(l, o) := interval_loop None p (last + p) (last + p + d) ds' in (tk :: l, o)
    end.
Proof.
  intros Hr. rewrite interval_loop_eq. cbn zeta. rewrite (step_date last p now Hr). cbn [cut].
  destruct (Z.ltb_spec (last + p - now) 0); [lia|]. rewrite andb_false_r.
  destruct ds; [reflexivity|]. rewrite andb_false_r. reflexivity.
Qed.

Lemma delay_loop_step h now ds :
  delay_loop None h now ds =
    let tk := mkTick (wait h now) (wait h now) h in
    match ds with
    | [] => ([tk], Completed)
    | d :: ds' => let '(l, o) := delay_loop None h (wait h now + d) ds' in (tk :: l, o)
    end.
Proof.
  rewrite delay_loop_eq. cbn zeta. cbn [cut]. rewrite andb_false_r.
  destruct ds; [reflexivity|]. rewrite andb_false_r. reflexivity.
Qed.

Lemma first_over_spec p ds k :
  first_over p ds = Some k <->
  (exists d, nth_error ds k = Some d /\ p < d) /\
  (forall j d, (j < k)%nat -> nth_error ds j = Some d -> d <= p).
Proof.
  revert k. induction ds as [|d ds IH]; intros k; cbn [first_over].
  - split; [discriminate|]. intros [[d [Hd _]] _]. destruct k; discriminate.
  - destruct (Z.ltb_spec p d) as [Hlt|Hge].
    + split.
      * intros [= <-]. split; [exists d; auto|]. intros; lia.
      * intros [_ Hall]. destruct k as [|k]; [reflexivity|].
        specialize (Hall O d (Nat.lt_0_succ k) eq_refl). lia.
    + destruct k as [|k].
      * split; [destruct (first_over p ds); discriminate|]. intros [[d' [[= <-] Hp]] _]. lia.
      * split.
        -- intros E. destruct (first_over p ds) as [k'|]; [injection E as <-|discriminate].
           destruct (proj1 (IH k') eq_refl) as [Hex Hall]. split; [exact Hex|].
           intros [|j] d' Hj Hn; [injection Hn as <-; exact Hge|apply (Hall j d'); [lia|exact Hn]].
        -- intros [Hex Hall]. rewrite (proj2 (IH k)); [reflexivity|]. split; [exact Hex|].
           intros j d' Hj Hn. apply (Hall (S j) d'); [lia|exact Hn].
Qed.

Lemma first_over_none p ds :
  first_over p ds = None <-> Forall (fun d => d <= p) ds.
Proof.
  induction ds as [|d ds IH]; cbn [first_over]; [split; auto|].
  destruct (Z.ltb_spec p d).
  - split; [discriminate|]. intros F. inversion F; lia.
  - destruct (first_over p ds); cbn [option_map].
    + split; [discriminate|]. intros F. inversion F; subst. apply IH in H3. discriminate.
    + split; auto. intros _. constructor; [lia|]. apply IH; reflexivity.
Qed.

Lemma interval_loop_grid ds : forall p last now l o,
  interval_loop None p last now ds = (l, o) ->
  forall k tk, nth_error l k = Some tk -> tk_time tk = last + (Z.of_nat k + 1) * p.
Proof.
  induction ds as [|d ds IH]; intros p last now l o E k tk Hk;
    (destruct (Z.ltb_spec (last + p - now) 0) as [Hr|Hr];
     [rewrite interval_loop_exceeded in E by lia; injection E as <- <-; destruct k; discriminate|]);
    rewrite interval_loop_step in E by lia; cbn zeta in E.
  - injection E as <- <-. destruct k as [|[|k]]; cbn in Hk; try discriminate.
    injection Hk as <-. cbn [tk_time Z.of_nat]. lia.
  - destruct (interval_loop None p (last + p) (last + p + d) ds) as [l' o'] eqn:E'.
    injection E as <- <-. destruct k as [|k]; cbn in Hk.
    + injection Hk as <-. cbn [tk_time Z.of_nat]. lia.
    + rewrite (IH _ _ _ _ _ E' k tk Hk). lia.
Qed.

Lemma interval_loop_outcome ds : forall p last now l o,
  now <= last + p ->
  interval_loop None p last now ds = (l, o) ->
  match first_over p ds with
  | Some k => o = Exceeded /\ length l = S k
  | None => o = Completed /\ length l = S (length ds)
  end.
Proof.
  induction ds as [|d ds IH]; intros p last now l o Hn E;
    rewrite interval_loop_step in E by lia; cbn zeta in E.
  - injection E as <- <-. cbn. auto.
  - destruct (interval_loop None p (last + p) (last + p + d) ds) as [l' o'] eqn:E'.
    injection E as <- <-. cbn [first_over].
    destruct (Z.ltb_spec p d) as [Hlt|Hge].
    + rewrite interval_loop_exceeded in E' by lia. injection E' as <- <-. cbn. auto.
    + specialize (IH p (last + p) (last + p + d) l' o' ltac:(lia) E').
      destruct (first_over p ds); cbn [option_map length]; destruct IH as [-> ->]; auto.
Qed.

Lemma interval_loop_values ds : forall H p last now l o,
  interval_loop H p last now ds = (l, o) ->
  Forall (fun tk => tk_value tk = tk_time tk /\
                    (tk_how tk = Postpone \/ exists r, 0 < r /\ tk_how tk = Suspend r)) l.
Proof.
  induction ds as [|d ds IH]; intros H p last now l o; rewrite interval_loop_eq; cbn zeta;
    pose proof (step_how_yields last p now) as Hh;
    (destruct (_ <? 0); [intros [= <- <-]; constructor|]);
    (destruct (_ && _); [intros [= <- <-]; constructor|]).
  - intros [= <- <-]. constructor; [split; [reflexivity|exact Hh]|constructor].
  - destruct (_ && _); [intros [= <- <-]; constructor; [split; [reflexivity|exact Hh]|constructor]|].
    destruct (interval_loop H p _ _ ds) as [l' o'] eqn:E'. intros [= <- <-].
    constructor; [split; [reflexivity|exact Hh]|exact (IH _ _ _ _ _ _ E')].
Qed.

Section Interval.
Variables (start p : Z) (ds : list Z) (l : list tick) (o : outcome).
Hypothesis Hp : 0 <= p.
Hypothesis Hrun : interval_run None start p ds = (l, o).

Lemma interval_run_loop : interval_loop None p start start ds = (l, o).
Proof. unfold interval_run in Hrun. destruct (Z.ltb_spec p 0); [lia|exact Hrun]. Qed.

(** the k-th body (k = 0, 1, ...) is resumed at start + (k+1) p, whatever the earlier bodies did *)
Theorem interval_on_grid : forall k tk,
  nth_error l k = Some tk -> tk_time tk = start + (Z.of_nat k + 1) * p.
Proof. intros. eapply interval_loop_grid; [exact interval_run_loop|eassumption]. Qed.

Theorem interval_grid : forall k,
  (k <= length ds)%nat ->
  (forall j d, (j < k)%nat -> nth_error ds j = Some d -> d <= p) ->
  exists tk, nth_error l k = Some tk /\ tk_time tk = start + (Z.of_nat k + 1) * p /\ tk_value tk = tk_time tk.
Proof.
  intros k Hk Hall.
  assert (Ho := interval_loop_outcome ds p start start l o ltac:(lia) interval_run_loop).
  assert (Hlen : (k < length l)%nat).
  { destruct (first_over p ds) as [k0|] eqn:E.
    - destruct Ho as [_ ->]. apply first_over_spec in E. destruct E as [[d [Hd Hlt]] _].
      destruct (Nat.lt_ge_cases k0 k) as [Hc|Hc]; [|lia].
      specialize (Hall k0 d Hc Hd). lia.
    - destruct Ho as [_ ->]. lia. }
  destruct (nth_error l k) as [tk|] eqn:E; [|apply nth_error_None in E; lia].
  exists tk. split; [reflexivity|]. split; [apply (interval_on_grid k tk E)|].
  assert (F := interval_loop_values ds None p start start l o interval_run_loop).
  rewrite Forall_forall in F. apply (F tk). eapply nth_error_In; eassumption.
Qed.

(** IntervalExceeded is raised exactly at the first body that took longer than p, after the ticks up to and including
    that body's *)
Theorem interval_exceeded_at :
  match first_over p ds with
  | Some k => o = Exceeded /\ length l = S k
  | None => o = Completed /\ length l = S (length ds)
  end.
Proof. apply (interval_loop_outcome ds p start start l o); [lia|exact interval_run_loop]. Qed.

Theorem interval_exceeded_iff : o = Exceeded <-> Exists (fun d => p < d) ds.
Proof.
  assert (Ho := interval_exceeded_at).
  destruct (first_over p ds) as [k|] eqn:E.
  - destruct Ho as [-> _]. split; [intros _|reflexivity].
    apply first_over_spec in E. destruct E as [[d [Hd Hlt]] _].
    apply Exists_exists. exists d. split; [eapply nth_error_In; eassumption|lia].
  - destruct Ho as [-> _]. split; [discriminate|]. intros Hex.
    apply first_over_none in E. apply Exists_exists in Hex. destruct Hex as [d [Hin Hlt]].
    rewrite Forall_forall in E. specialize (E d Hin). lia.
Qed.

Theorem interval_outcomes : o = Completed \/ o = Exceeded.
Proof. assert (Ho := interval_exceeded_at). destruct (first_over p ds); destruct Ho; auto. Qed.

End Interval.

Lemma sum_firstn_S ds : forall k d,
  nth_error ds k = Some d -> sum_firstn (S k) ds = sum_firstn k ds + d.
Proof.
  induction ds as [|a ds IH]; intros [|k] d Hk; try discriminate; cbn in Hk.
  - injection Hk as <-. cbn. lia.
  - change (a + sum_firstn (S k) ds = a + sum_firstn k ds + d). rewrite (IH k d Hk). lia.
Qed.

(** [q] is the period: [wait h] adds it whether [h] suspends or postpones *)
Lemma delay_loop_closed ds : forall h q now l o,
  (forall t, wait h t = t + q) ->
  delay_loop None h now ds = (l, o) ->
  o = Completed /\ length l = S (length ds) /\
  (forall k tk, nth_error l k = Some tk -> tk_time tk = now + (Z.of_nat k + 1) * q + sum_firstn k ds).
Proof.
  induction ds as [|d ds IH]; intros h q now l o Hw E; rewrite delay_loop_step in E; cbn zeta in E.
  - injection E as <- <-. repeat split.
    intros [|[|k]] tk Hk; cbn in Hk; try discriminate.
    injection Hk as <-. cbn [tk_time Z.of_nat sum_firstn]. rewrite Hw. lia.
  - destruct (delay_loop None h (wait h now + d) ds) as [l' o'] eqn:E'.
    injection E as <- <-. destruct (IH _ _ _ _ _ Hw E') as (Ho & Hlen & Hc).
    repeat split; [exact Ho|cbn [length]; rewrite Hlen; reflexivity|].
    intros [|k] tk Hk; cbn in Hk.
    + injection Hk as <-. cbn [tk_time Z.of_nat sum_firstn]. rewrite Hw. lia.
    + rewrite (Hc k tk Hk), Hw. cbn [sum_firstn]. lia.
Qed.

Lemma delay_loop_values ds : forall H h now l o,
  delay_loop H h now ds = (l, o) ->
  Forall (fun tk => tk_value tk = tk_time tk /\ tk_how tk = h) l.
Proof.
  induction ds as [|d ds IH]; intros H h now l o; rewrite delay_loop_eq; cbn zeta;
    (destruct (_ && _); [intros [= <- <-]; constructor|]).
  - intros [= <- <-]. constructor; [split; reflexivity|constructor].
  - destruct (_ && _); [intros [= <- <-]; constructor; [split; reflexivity|constructor]|].
    destruct (delay_loop H h _ ds) as [l' o'] eqn:E'. intros [= <- <-].
    constructor; [split; reflexivity|exact (IH _ _ _ _ _ E')].
Qed.

Section Delay.
Variables (start p : Z) (ds : list Z) (l : list tick) (o : outcome).
Hypothesis Hp : 0 <= p.
Hypothesis Hrun : delay_run None start p ds = (l, o).

Let h := if 0 <? p then Suspend p else Postpone.

Lemma delay_run_loop : delay_loop None h start ds = (l, o).
Proof. unfold delay_run in Hrun. destruct (Z.ltb_spec p 0); [lia|exact Hrun]. Qed.

Lemma delay_wait t : wait h t = t + p.
Proof. unfold h. destruct (Z.ltb_spec 0 p); cbn [wait]; lia. Qed.

(** delay never raises, runs every body, and pauses exactly p after the end of each body run *)
Theorem delay_span :
  o = Completed /\ length l = S (length ds) /\
  (forall tk, nth_error l 0 = Some tk -> tk_time tk = start + p) /\
  (forall k a b d, nth_error l k = Some a -> nth_error l (S k) = Some b -> nth_error ds k = Some d ->
                   tk_time b = (tk_time a + d) + p).
Proof.
  destruct (delay_loop_closed ds h p start l o delay_wait delay_run_loop) as (Ho & Hlen & Hc).
  repeat split; auto.
  - intros tk Hk. rewrite (Hc O tk Hk). cbn [Z.of_nat sum_firstn]. lia.
  - intros k a b d Ha Hb Hd. rewrite (Hc _ _ Ha), (Hc _ _ Hb), (sum_firstn_S _ _ _ Hd). lia.
Qed.

Theorem delay_closed_form : forall k tk,
  nth_error l k = Some tk -> tk_time tk = start + (Z.of_nat k + 1) * p + sum_firstn k ds.
Proof. apply (delay_loop_closed ds h p start l o delay_wait delay_run_loop). Qed.

End Delay.

Lemma run_values H start p ds l o :
  (interval_run H start p ds = (l, o) \/ delay_run H start p ds = (l, o)) ->
  Forall (fun tk => tk_value tk = tk_time tk /\
                    (tk_how tk = Postpone \/ exists r, 0 < r /\ tk_how tk = Suspend r)) l.
Proof.
  intros [E|E].
  - unfold interval_run in E. destruct (p <? 0); [injection E as <- <-; constructor|].
    exact (interval_loop_values _ _ _ _ _ _ _ E).
  - unfold delay_run in E. destruct (p <? 0); [injection E as <- <-; constructor|].
    eapply Forall_impl; [|exact (delay_loop_values _ _ _ _ _ _ E)].
    cbn. intros tk [Hv ->]. split; [exact Hv|].
    destruct (Z.ltb_spec 0 p); [right; exists p; auto|left; reflexivity].
Qed.

Theorem yield_is_now : forall H start p ds l o,
  (interval_run H start p ds = (l, o) \/ delay_run H start p ds = (l, o)) ->
  Forall (fun tk => tk_value tk = tk_time tk) l.
Proof.
  intros H start p ds l o E. eapply Forall_impl; [|exact (run_values _ _ _ _ _ _ E)]. cbn; tauto.
Qed.

Theorem negative_rejected : forall H start p ds,
  p < 0 -> interval_run H start p ds = ([], ValueErr) /\ delay_run H start p ds = ([], ValueErr).
Proof.
  intros H start p ds Hp. unfold interval_run, delay_run.
  destruct (Z.ltb_spec p 0); [auto|lia].
Qed.

(** every step hands control to the event loop: postpone(), or suspend(r) with r > 0 *)
Theorem always_yields : forall H start p ds l o,
  0 <= p ->
  (interval_run H start p ds = (l, o) \/ delay_run H start p ds = (l, o)) ->
  Forall (fun tk => tk_how tk = Postpone \/ exists r, 0 < r /\ tk_how tk = Suspend r) l.
Proof.
  intros H start p ds l o _ E. eapply Forall_impl; [|exact (run_values _ _ _ _ _ _ E)]. cbn; tauto.
Qed.

Lemma interval_loop_zero ds : forall H last now l o,
  Forall (fun d => 0 <= d) ds ->
  last <= now ->
  interval_loop H 0 last now ds = (l, o) -> Forall (fun tk => tk_how tk = Postpone) l.
Proof.
  induction ds as [|d ds IH]; intros H last now l o Hds Hn; rewrite interval_loop_eq; cbn zeta;
    (destruct (Z.ltb_spec (last + 0 - now) 0); [intros [= <- <-]; constructor|]);
    replace (step_how last 0 now) with Postpone
      by (unfold step_how; destruct (Z.ltb_spec 0 (last + 0 - now)); [lia|reflexivity]);
    cbn [is_suspend andb wait].
  - intros [= <- <-]. constructor; [reflexivity|constructor].
  - destruct (_ && _); [intros [= <- <-]; constructor; [reflexivity|constructor]|].
    destruct (interval_loop H 0 now (now + d) ds) as [l' o'] eqn:E'. intros [= <- <-].
    inversion Hds; subst. constructor; [reflexivity|].
    apply (IH H now (now + d) l' o'); [assumption|lia|exact E'].
Qed.

Theorem zero_period_postpones : forall H start ds l o,
  Forall (fun d => 0 <= d) ds ->
  (interval_run H start 0 ds = (l, o) \/ delay_run H start 0 ds = (l, o)) ->
  Forall (fun tk => tk_how tk = Postpone) l.
Proof.
  intros H start ds l o Hds [E|E].
  - eapply (interval_loop_zero ds H start start); [exact Hds|lia|exact E].
  - unfold delay_run in E. cbn in E.
    eapply Forall_impl; [|eapply delay_loop_values; exact E]. cbn; tauto.
Qed.

Lemma interval_loop_prefix ds : forall H p last now l o,
  interval_loop H p last now ds = (l, o) ->
  exists l' o', interval_loop None p last now ds = (l ++ l', o') /\
                (o <> Interrupted -> l' = [] /\ o' = o).
Proof.
  induction ds as [|d ds IH]; intros H p last now l o;
    rewrite (interval_loop_eq H), (interval_loop_eq None); cbn zeta; cbn [cut]; rewrite ?andb_false_r;
    (destruct (_ <? 0); [intros [= <- <-]; exists [], Exceeded; auto|]).
  - destruct (_ && _); intros [= <- <-]; eexists _, _; (split; [reflexivity|]); [congruence|auto].
  - destruct (interval_loop None p _ _ ds) as [l1 o1] eqn:E1.
    destruct (_ && _); [intros [= <- <-]; eexists _, _; split; [reflexivity|congruence]|].
    destruct (_ && _); [intros [= <- <-]; eexists _, _; split; [reflexivity|congruence]|].
    destruct (interval_loop H p _ _ ds) as [l2 o2] eqn:E2. intros [= <- <-].
    destruct (IH _ _ _ _ _ _ E2) as (l' & o' & E' & Hn).
    rewrite E1 in E'. injection E' as -> ->. exists l', o'. auto.
Qed.

Lemma delay_loop_prefix ds : forall H h now l o,
  delay_loop H h now ds = (l, o) ->
  exists l' o', delay_loop None h now ds = (l ++ l', o') /\
                (o <> Interrupted -> l' = [] /\ o' = o).
Proof.
  induction ds as [|d ds IH]; intros H h now l o;
    rewrite (delay_loop_eq H), (delay_loop_eq None); cbn zeta; cbn [cut]; rewrite ?andb_false_r.
  - destruct (_ && _); intros [= <- <-]; eexists _, _; (split; [reflexivity|]); [congruence|auto].
  - destruct (delay_loop None h _ ds) as [l1 o1] eqn:E1.
    destruct (_ && _); [intros [= <- <-]; eexists _, _; split; [reflexivity|congruence]|].
    destruct (_ && _); [intros [= <- <-]; eexists _, _; split; [reflexivity|congruence]|].
    destruct (delay_loop H h _ ds) as [l2 o2] eqn:E2. intros [= <- <-].
    destruct (IH _ _ _ _ _ E2) as (l' & o' & E' & Hn).
    rewrite E1 in E'. injection E' as -> ->. exists l', o'. auto.
Qed.

(** nested in until(): a prefix of the un-nested ticks, and the whole run unless the block was interrupted *)
Theorem nested_is_prefix : forall H start p ds l o,
  (interval_run H start p ds = (l, o) ->
   exists l' o', interval_run None start p ds = (l ++ l', o') /\ (o <> Interrupted -> l' = [] /\ o' = o)) /\
  (delay_run H start p ds = (l, o) ->
   exists l' o', delay_run None start p ds = (l ++ l', o') /\ (o <> Interrupted -> l' = [] /\ o' = o)).
Proof.
  intros H start p ds l o. unfold interval_run, delay_run. split; intros E.
  - destruct (p <? 0); [inversion E; subst; exists [], ValueErr; auto|].
    eapply interval_loop_prefix; eassumption.
  - destruct (p <? 0); [inversion E; subst; exists [], ValueErr; auto|].
    eapply delay_loop_prefix; eassumption.
Qed.

(** concrete runs: the hypotheses above can be met *)

Example interval_short_bodies :
  run_case (false, None, 3, 5, [2; 5; 0]) =
  ([(8, 8, 5); (13, 13, 3); (18, 18, 0); (23, 23, 5)], 0).
Proof. reflexivity. Qed.

Example interval_long_body :
  run_case (false, None, 0, 5, [2; 6; 1]) = ([(5, 5, 5); (10, 10, 3)], 1).
Proof. reflexivity. Qed.

Example delay_bodies :
  run_case (true, None, 0, 5, [2; 6; 0]) = ([(5, 5, 5); (12, 12, 5); (23, 23, 5); (28, 28, 5)], 0).
Proof. reflexivity. Qed.

Example zero_period :
  run_case (false, None, 7, 0, [0; 0; 1]) = ([(7, 7, 0); (7, 7, 0); (7, 7, 0)], 1).
Proof. reflexivity. Qed.

Example nested_until :
  run_case (false, Some 12, 0, 5, [2; 1; 1]) = ([(5, 5, 5); (10, 10, 3)], 3).
Proof. reflexivity. Qed.
