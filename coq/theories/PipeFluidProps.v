(** C13 - proofs about the machines of PipeFluid.v *)
From Coq Require Import QArith Qminmax List Lia Lqa.
From Usim Require Import PipeFluid ListFacts.
Import ListNotations.
Open Scope Q_scope.

Lemma Forall2_map_r {A B C} (P : A -> C -> Prop) (g : B -> C) l l' :
  Forall2 (fun a b => P a (g b)) l l' -> Forall2 P l (map g l').
Proof. induction 1; cbn; constructor; auto. Qed.

Lemma Forall2_map_l {A B C} (P : C -> B -> Prop) (g : A -> C) l l' :
  Forall2 (fun a b => P (g a) b) l l' -> Forall2 P (map g l) l'.
Proof. induction 1; cbn; constructor; auto. Qed.

Lemma Forall2_impl {A B} (P Q : A -> B -> Prop) l l' :
  (forall a b, P a b -> Q a b) -> Forall2 P l l' -> Forall2 Q l l'.
Proof. intros H; induction 1; constructor; auto. Qed.

Lemma Forall2_impl_l {A B} (P : A -> Prop) (Q Q' : A -> B -> Prop) l l' :
  (forall a b, P a -> Q a b -> Q' a b) -> Forall P l -> Forall2 Q l l' -> Forall2 Q' l l'.
Proof.
  intros H HP HQ; induction HQ; constructor.
  - inversion HP; auto.
  - apply IHHQ. inversion HP; auto.
Qed.

Lemma Forall2_remove_nth {A B} (P : A -> B -> Prop) i l l' :
  Forall2 P l l' -> Forall2 P (remove_nth i l) (remove_nth i l').
Proof.
  intros H; revert i; induction H; intros [|i]; cbn; auto.
Qed.

Lemma Forall2_nth_error {A B} (P : A -> B -> Prop) l l' i a :
  Forall2 P l l' -> nth_error l i = Some a -> exists b, nth_error l' i = Some b /\ P a b.
Proof.
  intros H; revert i; induction H; intros [|i]; cbn; try discriminate.
  - intros [= <-]; eauto.
  - apply IHForall2.
Qed.

Lemma Forall2_len {A B} (P : A -> B -> Prop) l l' : Forall2 P l l' -> length l = length l'.
Proof. induction 1; cbn; auto. Qed.

Lemma Forall2_left {A B} (P : A -> Prop) (Q : A -> B -> Prop) l l' :
  (forall a b, Q a b -> P a) -> Forall2 Q l l' -> Forall P l.
Proof. intros H; induction 1; constructor; eauto. Qed.

Lemma Forall2_right {A B} (P : B -> Prop) (Q : A -> B -> Prop) l l' :
  (forall a b, Q a b -> P b) -> Forall2 Q l l' -> Forall P l'.
Proof. intros H; induction 1; constructor; eauto. Qed.

Lemma Forall2_filter {A B} (P : A -> B -> Prop) (p : A -> bool) (q : B -> bool) l l' :
  (forall a b, P a b -> p a = q b) -> Forall2 P l l' -> Forall2 P (filter p l) (filter q l').
Proof.
  intros H; induction 1; cbn; auto.
  rewrite <- (H _ _ H0). destruct (p x); auto.
Qed.

Lemma Forall2_diag {A} (P : A -> A -> Prop) l : Forall (fun a => P a a) l -> Forall2 P l l.
Proof. induction 1; constructor; auto. Qed.

Lemma remove_nth_length {A} i (l : list A) a :
  nth_error l i = Some a -> S (length (remove_nth i l)) = length l.
Proof.
  revert i; induction l; intros [|i]; cbn; try discriminate; auto.
Qed.

Lemma Forall_remove_nth {A} (P : A -> Prop) i l : Forall P l -> Forall P (remove_nth i l).
Proof.
  intros H; revert i; induction H; intros [|i]; cbn; auto.
Qed.

Lemma remove_nth_In {A} i (l : list A) a x :
  nth_error l i = Some a -> In x l -> x = a \/ In x (remove_nth i l).
Proof.
  revert i; induction l as [|b l IH]; intros [|i]; cbn; try discriminate.
  - intros [= <-] [<-|H]; auto.
  - intros N [<-|H]; [auto|]. destruct (IH i N H); auto.
Qed.

Definition qsum {A} (f : A -> Q) (l : list A) : Q := fold_right (fun x a => f x + a) 0 l.

Lemma qsum_nonneg {A} (f : A -> Q) l : Forall (fun x => 0 < f x) l -> 0 <= qsum f l.
Proof. induction 1; [apply Qle_refl|]. unfold qsum in *; cbn. lra. Qed.

Lemma qsum_pos {A} (f : A -> Q) l x : Forall (fun x => 0 < f x) l -> In x l -> 0 < qsum f l.
Proof.
  intros H Hin. destruct H as [|y l Hy Hl]; [destruct Hin|].
  pose proof (qsum_nonneg f l Hl). unfold qsum in *; cbn. lra.
Qed.

Lemma Qle_bool_false a b : Qle_bool a b = false <-> b < a.
Proof.
  split; intros H.
  - apply Qnot_le_lt. intros L. apply Qle_bool_iff in L. congruence.
  - destruct (Qle_bool a b) eqn:E; [|reflexivity]. apply Qle_bool_iff in E. lra.
Qed.

Lemma le_ext_compat d d' b : d == d' -> le_ext d b = le_ext d' b.
Proof. intros E. destruct b; cbn; [apply Qleb_comp; [exact E|]|]; reflexivity. Qed.

Lemma le_ext_later d d' b : le_ext d b = false -> d <= d' -> le_ext d' b = false.
Proof.
  destruct b as [t|]; cbn; [|discriminate]. rewrite !Qle_bool_false. intros; lra.
Qed.

Lemma argmin_none ks : argmin ks = None <-> ks = [].
Proof.
  destruct ks; cbn; [tauto|]. split; [|discriminate].
  destruct (argmin ks) as [[i m]|]; [destruct (Qle_bool q m)|]; discriminate.
Qed.

Lemma argmin_spec ks i m :
  argmin ks = Some (i, m) -> nth_error ks i = Some m /\ Forall (fun k => m <= k) ks.
Proof.
  revert i m; induction ks as [|k r IH]; cbn; [discriminate|].
  intros i m. destruct (argmin r) as [[j n]|] eqn:E.
  - destruct (IH _ _ eq_refl) as [Hn Hall].
    destruct (Qle_bool k n) eqn:L; intros [= <- <-]; cbn.
    + apply Qle_bool_iff in L. split; auto. constructor; [apply Qle_refl|].
      eapply Forall_impl; [|exact Hall]. cbn; intros; eapply Qle_trans; eauto.
    + apply Qle_bool_false in L. split; auto. constructor; [apply Qlt_le_weak|]; auto.
  - apply argmin_none in E; subst. intros [= <- <-]; cbn. split; auto.
    constructor; [apply Qle_refl | constructor].
Qed.

Lemma argmin_nth {A} (key : A -> Q) l i d :
  argmin (map key l) = Some (i, d) ->
  exists x, nth_error l i = Some x /\ key x = d /\ Forall (fun z => d <= key z) l.
Proof.
  intros E. apply argmin_spec in E as [Hn Hall]. rewrite nth_error_map in Hn.
  destruct (nth_error l i) as [x|]; cbn in Hn; [|discriminate].
  injection Hn as Hn. exists x. repeat split; auto. apply Forall_map, Hall.
Qed.

Lemma argmin_compat ks ks' :
  Forall2 Qeq ks ks' ->
  match argmin ks with
  | Some (i, m) => exists n, argmin ks' = Some (i, n) /\ m == n
  | None => argmin ks' = None
  end.
Proof.
  induction 1 as [|x y l l' H _ IH]; cbn; [reflexivity|].
  destruct (argmin l) as [[i m]|].
  - destruct IH as (n & -> & E). rewrite (Qleb_comp _ _ H _ _ E).
    destruct (Qle_bool y n); [exists y | exists n]; (split; [reflexivity | assumption]).
  - rewrite IH. exists y. split; [reflexivity | exact H].
Qed.

Definition Tpos (T : ext) : Prop := match T with Fin t => 0 < t | Inf => True end.

Lemma scale_of_cases t d :
  d <= t /\ scale_of (Fin t) d = 1 \/ t < d /\ scale_of (Fin t) d = t / d.
Proof.
  cbn. destruct (Qle_bool d t) eqn:E; [left|right]; (split; [|reflexivity]).
  - apply Qle_bool_iff, E.
  - apply Qle_bool_false, E.
Qed.

Lemma scale_pos T d : Tpos T -> 0 < scale_of T d.
Proof.
  destruct T as [t|]; [|reflexivity]. cbn [Tpos]. intros Ht.
  destruct (scale_of_cases t d) as [[_ ->]|[H ->]]; [reflexivity|].
  apply Qlt_shift_div_l; lra.
Qed.

Lemma scale_le_1 T d : Tpos T -> scale_of T d <= 1.
Proof.
  destruct T as [t|]; [|intros; apply Qle_refl]. cbn [Tpos]. intros Ht.
  destruct (scale_of_cases t d) as [[_ ->]|[H ->]]; [apply Qle_refl|].
  apply Qle_shift_div_r; lra.
Qed.

(** the property's formula: min(own limit, limit * T / sum of limits) *)
Theorem rate_spec t d l :
  0 < t -> 0 < d -> 0 <= l -> rate_of (Fin t) d l == Qmin l (l * t / d).
Proof.
  intros Ht Hd Hl. unfold rate_of. destruct (scale_of_cases t d) as [[H ->]|[H ->]].
  - rewrite Q.min_l; [ring|]. apply Qle_shift_div_l; auto. nra.
  - rewrite Q.min_r; [field; lra|]. apply Qle_shift_div_r; auto. nra.
Qed.

Theorem uncongested_rate T d l :
  match T with Fin t => d <= t | Inf => True end -> rate_of T d l == l.
Proof.
  unfold rate_of. destruct T as [t|]; cbn; intros H; [|ring].
  apply Qle_bool_iff in H. rewrite H. ring.
Qed.

Corollary rate_inf d l : rate_of Inf d l == l.
Proof. exact (uncongested_rate Inf d l I). Qed.

Theorem scaled_sum_le t d : 0 < t -> scale_of (Fin t) d * d <= t.
Proof.
  intros Ht. destruct (scale_of_cases t d) as [[H ->]|[H ->]]; [lra|].
  assert (t / d * d == t) by (field; lra). lra.
Qed.

(** a crowded pipe: [n] transfers with the same limit [l] that together exceed the throughput each progress at exactly
    [t / n] *)
Corollary equal_shares t l (n : positive) :
  0 < t -> 0 < l -> t < inject_Z (Zpos n) * l ->
  rate_of (Fin t) (inject_Z (Zpos n) * l) l == t / inject_Z (Zpos n).
Proof.
  intros Ht Hl Hc.
  assert (Hn : 0 < inject_Z (Zpos n)) by (unfold Qlt; cbn; lia).
  unfold rate_of. destruct (scale_of_cases t (inject_Z (Zpos n) * l)) as [[H _]|[_ ->]]; [lra|].
  field. split; lra.
Qed.

(** what the windowed transfer [x] has moved by time [t]: lump + current window *)
Definition got (t : Q) (x : xfer) : Q := xtr x + (t - xws x) * xwr x.

Definition Xok (t sc : Q) (x : xfer) : Prop :=
  0 < xlim x /\ xwr x == xlim x * sc /\ xws x <= t /\ 0 <= xtr x /\ got t x <= xvol x.

Definition Rx (t sc : Q) (x : xfer) (y : fx) : Prop :=
  Xok t sc x /\ xid x = fid y /\ xlim x = flim y /\ xvol x = fvol y /\ famt y == got t x.

Definition Rfin (a b : Z * Q) : Prop := fst a = fst b /\ snd a == snd b.

Definition R (s : st) (f : fstate) : Prop :=
  Tpos (thr s) /\ 0 < scl s /\ scl s == scale_of (thr s) (sum_lim (act s)) /\
  thr s = fthr f /\ now s == fnow f /\
  Forall2 (Rx (now s) (scl s)) (act s) (fact f) /\ Forall2 Rfin (fin s) (ffin f).

Lemma Xok_wr_pos t sc x : 0 < sc -> Xok t sc x -> 0 < xwr x.
Proof. intros Hs (Hl & Hw & _). rewrite Hw. apply Qmult_lt_0_compat; auto. Qed.

(** the timer of the current window is set for the moment the amount reaches the volume *)
Lemma got_due t x : 0 < xwr x -> got t x - xvol x == (t - due x) * xwr x.
Proof. intros H. unfold got, due. field. lra. Qed.

Lemma le_due_iff t x : 0 < xwr x -> (got t x <= xvol x <-> t <= due x).
Proof. intros Hw. pose proof (got_due t x Hw). split; intros; nra. Qed.

Lemma lt_due_iff t x : 0 < xwr x -> (got t x < xvol x <-> t < due x).
Proof. intros Hw. pose proof (got_due t x Hw). split; intros; nra. Qed.

Lemma eq_due_iff t x : 0 < xwr x -> (got t x == xvol x <-> t == due x).
Proof. intros Hw. pose proof (got_due t x Hw). split; intros; nra. Qed.

Lemma now_le_due s x : 0 < scl s -> Xok (now s) (scl s) x -> now s <= due x.
Proof.
  intros Hs Hx. apply le_due_iff; [exact (Xok_wr_pos _ _ _ Hs Hx) | apply Hx].
Qed.

Lemma got_compat t t' x : t == t' -> got t x == got t' x.
Proof. intros E. unfold got. rewrite E. reflexivity. Qed.

Lemma got_replan t sc x : got t (replan t sc x) == got t x.
Proof. unfold got, replan; cbn. ring. Qed.

Lemma Xok_replan t sc sc' x : 0 < sc -> Xok t sc x -> Xok t sc' (replan t sc' x).
Proof.
  intros Hs (Hl & Hw & Hws & Htr & Hg).
  split; [exact Hl|]. split; [reflexivity|]. split; [apply Qle_refl|]. split.
  - cbn. assert (0 <= (t - xws x) * xwr x).
    { apply Qmult_le_0_compat; [lra|]. rewrite Hw. apply Qmult_le_0_compat; lra. }
    lra.
  - rewrite got_replan. exact Hg.
Qed.

Lemma Rx_replan t sc sc' x y : 0 < sc -> Rx t sc x y -> Rx t sc' (replan t sc' x) y.
Proof.
  intros Hs (Hx & Hi & Hl & Hv & Ha). split; [exact (Xok_replan t sc sc' x Hs Hx)|].
  cbn. repeat split; auto. rewrite got_replan; auto.
Qed.

Lemma Rx_sc t sc sc' x y : sc == sc' -> Rx t sc x y -> Rx t sc' x y.
Proof.
  intros E ((Hl & Hw & Hr) & Hy). split; auto. split; auto. split; auto. rewrite <- E; auto.
Qed.

Lemma sum_lim_replan t sc xs : sum_lim (map (replan t sc) xs) = sum_lim xs.
Proof. induction xs; [reflexivity|]. unfold sum_lim in *. cbn. rewrite IHxs. reflexivity. Qed.

Lemma sum_Rx t sc xs ys : Forall2 (Rx t sc) xs ys -> sum_lim xs = sum_flim ys.
Proof.
  induction 1; [reflexivity|]. destruct H as (_ & _ & Hl & _).
  unfold sum_lim, sum_flim in *. cbn. rewrite Hl, IHForall2. reflexivity.
Qed.

Lemma throttle_proj s a :
  thr (throttle s a) = thr s /\ now (throttle s a) = now s /\ fin (throttle s a) = fin s /\
  (act (throttle s a) = a /\ scl (throttle s a) = scl s \/
   act (throttle s a) = map (replan (now s) (scl (throttle s a))) a).
Proof.
  unfold throttle, relax, wake. destruct (thr s); [destruct (Qle_bool _ _)|];
    try destruct (Qeq_bool _ _); cbn; repeat split; auto.
Qed.

Lemma throttle_scl s a : scl (throttle s a) == scale_of (thr s) (sum_lim a).
Proof.
  assert (Hrelax : scl (relax s a) == 1).
  { unfold relax. destruct (Qeq_bool (scl s) 1) eqn:E; [apply Qeq_bool_iff, E|reflexivity]. }
  unfold throttle. destruct (thr s) as [t|]; cbn [scale_of]; [|exact Hrelax].
  destruct (Qle_bool (sum_lim a) t); [exact Hrelax|reflexivity].
Qed.

Lemma throttle_sum_lim s a : sum_lim (act (throttle s a)) = sum_lim a.
Proof.
  destruct (throttle_proj s a) as (_ & _ & _ & [[-> _]| ->]); [reflexivity|apply sum_lim_replan].
Qed.

Lemma throttle_length s a : length (act (throttle s a)) = length a.
Proof.
  destruct (throttle_proj s a) as (_ & _ & _ & [[-> _]| ->]); [reflexivity|apply map_length].
Qed.

Lemma throttle_xid s a : map xid (act (throttle s a)) = map xid a.
Proof.
  destruct (throttle_proj s a) as (_ & _ & _ & [[-> _]| ->]); [|rewrite map_map]; reflexivity.
Qed.

Lemma throttle_keeps s a x :
  In x a ->
  exists x', In x' (act (throttle s a)) /\ xid x' = xid x /\ xvol x' = xvol x /\
             got (now s) x' == got (now s) x.
Proof.
  intros Hin. destruct (throttle_proj s a) as (_ & _ & _ & [[-> _]| ->]).
  - exists x. split; [exact Hin|]. split; [|split]; reflexivity.
  - exists (replan (now s) (scl (throttle s a)) x).
    split; [apply in_map, Hin|]. split; [|split]; [reflexivity..|apply got_replan].
Qed.

Lemma tick_eq s i d x :
  argmin (map due (act s)) = Some (i, d) -> nth_error (act s) i = Some x ->
  tick s = throttle (mkS (thr s) d (scl s) (act s) (fin s ++ [(xid x, d)])) (remove_nth i (act s)).
Proof. intros E N. unfold tick. rewrite E, N. reflexivity. Qed.

Lemma tick_proj s i d x :
  argmin (map due (act s)) = Some (i, d) -> nth_error (act s) i = Some x ->
  now (tick s) = d /\ fin (tick s) = fin s ++ [(xid x, d)].
Proof. intros E N. rewrite (tick_eq _ _ _ _ E N). split; apply throttle_proj. Qed.

Lemma tick_keeps s i d z x :
  argmin (map due (act s)) = Some (i, d) -> nth_error (act s) i = Some z -> In x (act s) ->
  x = z \/ exists x', In x' (act (tick s)) /\ xid x' = xid x /\ xvol x' = xvol x /\ got d x' == got d x.
Proof.
  intros E N Hin. rewrite (tick_eq _ _ _ _ E N).
  destruct (remove_nth_In i _ _ x N Hin) as [->|Hin']; [left; reflexivity|right].
  exact (throttle_keeps (mkS _ d _ _ _) _ x Hin').
Qed.

Lemma tick_length s i d :
  argmin (map due (act s)) = Some (i, d) -> S (length (act (tick s))) = length (act s).
Proof.
  intros E. destruct (argmin_nth _ _ _ _ E) as (x & N & _).
  rewrite (tick_eq _ _ _ _ E N), throttle_length. exact (remove_nth_length _ _ _ N).
Qed.

Lemma set_now_fin s b : fin (set_now s b) = fin s.
Proof. destruct b; cbn; auto. destruct (Qle_bool _ _); auto. Qed.

(** the test on which [advance] stops *)
Lemma beyond_iff s b :
  Forall (fun x => le_ext (due x) b = false) (act s) <->
  match argmin (map due (act s)) with Some (_, d) => le_ext d b = false | None => True end.
Proof.
  destruct (argmin (map due (act s))) as [[i d]|] eqn:E.
  - destruct (argmin_nth _ _ _ _ E) as (x & N & <- & Hall). split.
    + intros H. exact (proj1 (Forall_forall _ _) H x (nth_error_In _ _ N)).
    + intros L. eapply Forall_impl; [|exact Hall]. intros z. apply le_ext_later, L.
  - apply argmin_none, map_eq_nil in E. rewrite E. split; constructor.
Qed.

Lemma advance_stop k s b :
  Forall (fun x => le_ext (due x) b = false) (act s) -> advance k s b = set_now s b.
Proof.
  intros Hall. apply beyond_iff in Hall. destruct k; [reflexivity|]. cbn.
  destruct (argmin (map due (act s))) as [[i d]|]; [rewrite Hall|]; reflexivity.
Qed.

Lemma advance_step k s b i d :
  argmin (map due (act s)) = Some (i, d) -> le_ext d b = true ->
  advance (S k) s b = advance k (tick s) b.
Proof. intros E L. cbn. rewrite E, L. reflexivity. Qed.

(** [advance k s b] when [k] bounds the number of timers: either every timer is beyond [b] and only the
    clock moves ([advance_stop]), or the earliest fires ([advance_step]) *)
Lemma advance_ind b (P : nat -> st -> Prop) :
  (forall k s, Forall (fun x => le_ext (due x) b = false) (act s) -> P k s) ->
  (forall k s i d, argmin (map due (act s)) = Some (i, d) -> le_ext d b = true ->
                   (length (act (tick s)) <= k)%nat -> P k (tick s) -> P (S k) s) ->
  forall k s, (length (act s) <= k)%nat -> P k s.
Proof.
  intros Hstop Hstep. induction k as [|k IH]; intros s Hlen.
  - apply Hstop. destruct (act s); [constructor | cbn in Hlen; lia].
  - destruct (argmin (map due (act s))) as [[i d]|] eqn:E.
    + destruct (le_ext d b) eqn:L.
      * assert (length (act (tick s)) <= k)%nat by (pose proof (tick_length _ _ _ E); lia).
        apply (Hstep k s i d E L); auto.
      * apply Hstop, beyond_iff. rewrite E. exact L.
    + apply Hstop, beyond_iff. rewrite E. exact I.
Qed.

Lemma throttle_R s acts f :
  Tpos (thr s) -> 0 < scl s -> thr s = fthr f -> now s == fnow f ->
  Forall2 (Rx (now s) (scl s)) acts (fact f) -> Forall2 Rfin (fin s) (ffin f) ->
  R (throttle s acts) f.
Proof.
  intros HT Hs HTf Hn Hact Hfin. pose proof (throttle_scl s acts) as Hsc.
  destruct (throttle_proj s acts) as (Et & En & Ef & Ha).
  unfold R. rewrite Et, En, Ef, throttle_sum_lim. repeat split; auto.
  - rewrite Hsc. apply scale_pos, HT.
  - destruct Ha as [[-> ->]| ->]; [exact Hact|].
    apply Forall2_map_l. eapply Forall2_impl; [|exact Hact]. intros x y. apply Rx_replan, Hs.
Qed.

Lemma frate_wr s f x y : R s f -> Rx (now s) (scl s) x y -> frate f y == xwr x.
Proof.
  intros (_ & _ & Hsc & HT & _ & Hact & _) ((_ & Hw & _) & _ & Hl & _).
  unfold frate, rate_of. rewrite <- HT, <- (sum_Rx _ _ _ _ Hact), <- Hl, <- Hsc, Hw. reflexivity.
Qed.

Lemma due_freach s f x y : R s f -> Rx (now s) (scl s) x y -> due x == freach f y.
Proof.
  intros HR Hxy. pose proof (frate_wr _ _ _ _ HR Hxy) as Hr.
  destruct HR as (_ & Hs & _ & _ & Hn & _). destruct Hxy as (Hx & _ & _ & Hv & Ha).
  pose proof (Xok_wr_pos _ _ _ Hs Hx) as Hw.
  unfold freach. rewrite Hr, Ha, <- Hn, <- Hv. unfold due, got. field. lra.
Qed.

Lemma keys_R s f : R s f -> Forall2 Qeq (map due (act s)) (map (freach f) (fact f)).
Proof.
  intros HR. apply Forall2_map_l, Forall2_map_r.
  eapply Forall2_impl; [|apply HR]. intros x y. apply due_freach, HR.
Qed.

Lemma Rx_advance s f d d' x y :
  R s f -> Rx (now s) (scl s) x y -> now s <= d -> d <= due x -> d == d' ->
  Rx d (scl s) x (mkF (fid y) (flim y) (fvol y) (famt y + (d' - fnow f) * frate f y)).
Proof.
  intros HR Hxy Hnd Hdd E. pose proof (frate_wr _ _ _ _ HR Hxy) as Hr.
  destruct HR as (_ & Hs & _ & _ & Hn & _). destruct Hxy as (Hx & Hi & Hl & Hv & Ha).
  pose proof (Xok_wr_pos _ _ _ Hs Hx) as Hw.
  destruct Hx as (H1 & H2 & H3 & H4 & H5).
  split; [|cbn; repeat split; auto].
  - repeat split; auto; [lra|]. apply le_due_iff; auto.
  - rewrite Hr, Ha, <- E, <- Hn. unfold got. ring.
Qed.

(** the relation at the new time, before the membership change *)
Lemma flow_R s f d d' :
  R s f -> now s <= d -> Forall (fun x => d <= due x) (act s) -> d == d' ->
  Forall2 (Rx d (scl s)) (act s) (fact (flow_to f d')).
Proof.
  intros HR Hnd Hall E. cbn. apply Forall2_map_r.
  apply (Forall2_impl_l (fun x => d <= due x) (Rx (now s) (scl s))); [|exact Hall|apply HR].
  intros x y Hdd Hxy. exact (Rx_advance s f d d' x y HR Hxy Hnd Hdd E).
Qed.

Lemma tick_R s f : R s f -> R (tick s) (ftick f).
Proof.
  intros HR. pose proof (argmin_compat _ _ (keys_R _ _ HR)) as K. unfold ftick.
  destruct (argmin (map due (act s))) as [[i d]|] eqn:E.
  2: { rewrite K. unfold tick. rewrite E. exact HR. }
  destruct K as (d' & -> & Hd). destruct (argmin_nth _ _ _ _ E) as (x & Nx & Hdx & Hall).
  rewrite (tick_eq _ _ _ _ E Nx).
  pose proof HR as (HT & Hs & _ & HTf & _ & Hact & Hfin).
  destruct (Forall2_nth_error _ _ _ _ _ Hact Nx) as (y & Ny & Hxy). rewrite Ny.
  assert (Hnd : now s <= d) by (rewrite <- Hdx; apply (now_le_due s x Hs), Hxy).
  apply throttle_R; cbn; auto.
  - apply Forall2_remove_nth, (flow_R s f d d' HR Hnd Hall Hd).
  - apply Forall2_app; auto. constructor; [|constructor]. split; cbn; auto. apply Hxy.
Qed.

Lemma set_now_R s f b :
  R s f -> Forall (fun x => le_ext (due x) b = false) (act s) -> R (set_now s b) (fset_now f b).
Proof.
  intros HR Hall. destruct b as [t|]; cbn; auto.
  pose proof HR as (HT & Hs & Hsc & HTf & Hn & Hact & Hfin).
  rewrite <- (Qleb_comp _ _ Hn t t (Qeq_refl t)). destruct (Qle_bool (now s) t) eqn:E; auto.
  apply Qle_bool_iff in E.
  assert (Hall' : Forall (fun x => t <= due x) (act s)).
  { eapply Forall_impl; [|exact Hall]. cbn. intros x Hx. apply Qlt_le_weak, Qle_bool_false, Hx. }
  pose proof (flow_R s f t t HR E Hall' (Qeq_refl t)) as HF.
  unfold R; cbn [thr now scl act fin]. repeat split; auto; reflexivity.
Qed.

(** related states take the same branch of the loop *)
Lemma fadvance_eq k s f b :
  R s f ->
  fadvance (S k) f b = match argmin (map due (act s)) with
                       | Some (_, d) => if le_ext d b then fadvance k (ftick f) b else fset_now f b
                       | None => fset_now f b
                       end.
Proof.
  intros HR. pose proof (argmin_compat _ _ (keys_R _ _ HR)) as K. cbn.
  destruct (argmin (map due (act s))) as [[i d]|]; [|rewrite K; reflexivity].
  destruct K as (d' & -> & Hd). rewrite (le_ext_compat _ _ b Hd). reflexivity.
Qed.

Lemma advance_R b k s :
  (length (act s) <= k)%nat -> forall f, R s f -> R (advance k s b) (fadvance k f b).
Proof.
  revert k s. refine (advance_ind b _ _ _).
  - intros k s Hall f HR. rewrite (advance_stop k s b Hall).
    replace (fadvance k f b) with (fset_now f b); [apply set_now_R; assumption|].
    destruct k; [reflexivity|]. rewrite (fadvance_eq k s f b HR). apply beyond_iff in Hall.
    destruct (argmin (map due (act s))) as [[i d]|]; [rewrite Hall|]; reflexivity.
  - intros k s i d E L _ IH f HR.
    rewrite (advance_step k s b i d E L), (fadvance_eq k s f b HR), E, L. apply IH, tick_R, HR.
Qed.

Definition op_ok (o : op) : Prop :=
  match o with
  | Join _ _ v l => 0 <= v /\ match l with Fin l => 0 < l | Inf => True end
  | Cancel _ _ => True
  end.

Lemma join_R s f id v l :
  R s f -> 0 <= v -> Tpos l -> R (join s id v l) (fjoin f id v l).
Proof.
  intros HR Hv Hl. pose proof HR as (HT & Hs & Hsc & HTf & Hn & Hact & Hfin).
  destruct l as [l|]; cbn [join fjoin].
  - apply throttle_R; cbn; auto.
    apply Forall2_app; auto. constructor; [|constructor].
    unfold Rx, Xok, got; cbn. repeat split; auto; try reflexivity; try apply Qle_refl.
    + ring_simplify. exact Hv.
    + ring.
  - unfold R; cbn. repeat split; auto. apply Forall2_app; auto.
    constructor; [|constructor]. split; cbn; auto.
Qed.

Lemma cancel_eq s id :
  let acts := filter (fun x => negb (has_id id x)) (act s) in
  cancel s id = throttle s acts \/ cancel s id = s /\ acts = act s.
Proof.
  unfold cancel. destruct (existsb (has_id id) (act s)) eqn:E; [left; reflexivity|].
  right. split; [reflexivity|]. apply filter_all. intros x Hx.
  destruct (has_id id x) eqn:Hid; [|reflexivity].
  assert (existsb (has_id id) (act s) = true) by (apply existsb_exists; eauto). congruence.
Qed.

Lemma cancel_R s f id : R s f -> R (cancel s id) (fcancel f id).
Proof.
  intros HR. pose proof HR as (HT & Hs & Hsc & HTf & Hn & Hact & Hfin).
  assert (HF : Forall2 (Rx (now s) (scl s)) (filter (fun x => negb (has_id id x)) (act s))
                       (filter (fun y => negb (fhas_id id y)) (fact f))).
  { apply Forall2_filter; auto. intros x y (_ & Hi & _). unfold has_id, fhas_id. rewrite Hi. auto. }
  destruct (cancel_eq s id) as [-> | [-> E]].
  - apply throttle_R; assumption.
  - rewrite E in HF. unfold R; cbn [fcancel fthr fnow fact ffin]. repeat split; auto.
Qed.

Lemma R_length s f : R s f -> length (act s) = length (fact f).
Proof. intros HR. apply (Forall2_len (Rx (now s) (scl s))), HR. Qed.

Lemma apply_R s f o : R s f -> op_ok o -> R (apply s o) (fapply f o).
Proof.
  intros HR Hok. destruct o as [t id v l | t id]; cbn [apply fapply];
    rewrite <- (R_length _ _ HR).
  - destruct Hok. apply join_R; auto. apply advance_R; auto.
  - apply cancel_R. apply advance_R; auto.
Qed.

Lemma init_R T : Tpos T -> R (init T) (finit T).
Proof.
  intros HT. unfold R; cbn. repeat split; auto; try reflexivity.
  destruct T as [t|]; cbn in *; [|reflexivity].
  assert (E : Qle_bool 0 t = true) by (apply Qle_bool_iff; lra). rewrite E. reflexivity.
Qed.

(** every state the windowed machine can reach is related to the fluid state of the same history *)
Theorem reach_R T ops :
  Tpos T -> Forall op_ok ops ->
  R (fold_left apply ops (init T)) (fold_left fapply ops (finit T)).
Proof.
  intros HT Hok. generalize (init_R T HT). generalize (init T), (finit T).
  induction Hok as [|o ops Ho _ IH]; cbn; auto. intros s f HR. apply IH, apply_R; auto.
Qed.

Theorem run_R T ops : Tpos T -> Forall op_ok ops -> R (run_st T ops) (frun_st T ops).
Proof.
  intros HT Hok. pose proof (reach_R T ops HT Hok) as HR.
  unfold run_st, frun_st, drain, fdrain. rewrite <- (R_length _ _ HR). apply advance_R; auto.
Qed.

(** the windowed algorithm completes every transfer at the time the fluid model does *)
Theorem windowed_equals_fluid T ops :
  Tpos T -> Forall op_ok ops -> Forall2 Rfin (run T ops) (frun T ops).
Proof. intros HT Hok. apply (run_R T ops HT Hok). Qed.

(** [Inv] is [R] with the fluid side forgotten ([R_Inv]), and a state that satisfies it is related to the
    fluid state [abs] it stands for ([Inv_R]): that each operation keeps [Inv] is read off the simulation lemmas *)
Definition Inv (s : st) : Prop :=
  Tpos (thr s) /\ 0 < scl s /\ scl s == scale_of (thr s) (sum_lim (act s)) /\
  Forall (Xok (now s) (scl s)) (act s).

Definition absx (t : Q) (x : xfer) : fx := mkF (xid x) (xlim x) (xvol x) (got t x).
Definition abs (s : st) : fstate := mkFS (thr s) (now s) (map (absx (now s)) (act s)) (fin s).

Lemma R_Inv s f : R s f -> Inv s.
Proof.
  intros (HT & Hs & Hsc & _ & _ & Hact & _). repeat split; auto.
  eapply Forall2_left; [|exact Hact]. intros a b H; apply H.
Qed.

Lemma Inv_R s : Inv s -> R s (abs s).
Proof.
  intros (HT & Hs & Hsc & Hact). unfold R; cbn. repeat split; auto; try reflexivity.
  - apply Forall2_map_r, Forall2_diag. eapply Forall_impl; [|exact Hact].
    intros x Hx. unfold Rx, absx; cbn. repeat split; auto; try apply Hx; reflexivity.
  - apply Forall2_diag, Forall_forall. intros [i t] _; split; reflexivity.
Qed.

Theorem reach_Inv T ops :
  Tpos T -> Forall op_ok ops -> Inv (fold_left apply ops (init T)).
Proof. intros HT Hok. exact (R_Inv _ _ (reach_R T ops HT Hok)). Qed.

Lemma tick_Inv s : Inv s -> Inv (tick s).
Proof. intros H. exact (R_Inv _ _ (tick_R _ _ (Inv_R s H))). Qed.

Lemma advance_Inv fuel s b : (length (act s) <= fuel)%nat -> Inv s -> Inv (advance fuel s b).
Proof. intros L H. exact (R_Inv _ _ (advance_R b fuel s L _ (Inv_R s H))). Qed.

Lemma join_Inv s id v l : Inv s -> 0 <= v -> Tpos l -> Inv (join s id v l).
Proof. intros H Hv Hl. exact (R_Inv _ _ (join_R s _ id v l (Inv_R s H) Hv Hl)). Qed.

Lemma cancel_Inv s id : Inv s -> Inv (cancel s id).
Proof. intros H. exact (R_Inv _ _ (cancel_R s _ id (Inv_R s H))). Qed.

Lemma Inv_lims s : Inv s -> Forall (fun x => 0 < xlim x) (act s).
Proof. intros (_ & _ & _ & H). eapply Forall_impl; [|exact H]. intros x Hx; apply Hx. Qed.

(** the property's first sentence *)
Theorem window_rate s x :
  Inv s -> In x (act s) -> xwr x == rate_of (thr s) (sum_lim (act s)) (xlim x).
Proof.
  intros (_ & _ & Hsc & Hact) Hin. rewrite Forall_forall in Hact.
  destruct (Hact x Hin) as (_ & Hw & _). unfold rate_of. rewrite <- Hsc. exact Hw.
Qed.

Theorem window_rate_spec s x t :
  Inv s -> thr s = Fin t -> In x (act s) ->
  xwr x == Qmin (xlim x) (xlim x * t / sum_lim (act s)).
Proof.
  intros HI HT Hin. rewrite (window_rate s x HI Hin), HT.
  pose proof HI as (HTp & _). rewrite HT in HTp; cbn in HTp.
  pose proof (Inv_lims s HI) as Hl.
  apply rate_spec; auto.
  - exact (qsum_pos xlim _ x Hl Hin).
  - rewrite Forall_forall in Hl. apply Qlt_le_weak; auto.
Qed.

Definition sum_wr (xs : list xfer) : Q := fold_right (fun x a => xwr x + a) 0 xs.

Lemma sum_wr_scl t sc xs : Forall (Xok t sc) xs -> sum_wr xs == sc * sum_lim xs.
Proof.
  induction 1; unfold sum_wr, sum_lim in *; cbn; [ring|].
  destruct H as (_ & Hw & _). rewrite IHForall, Hw. ring.
Qed.

Theorem sum_le_throughput s t : Inv s -> thr s = Fin t -> sum_wr (act s) <= t.
Proof.
  intros (HTp & _ & Hsc & Hact) HT. rewrite HT in *; cbn in HTp.
  rewrite (sum_wr_scl _ _ _ Hact), Hsc. apply scaled_sum_le, HTp.
Qed.

Theorem uncongested_full_speed s x :
  Inv s -> match thr s with Fin t => sum_lim (act s) <= t | Inf => True end ->
  In x (act s) -> xwr x == xlim x.
Proof.
  intros HI HU Hin. rewrite (window_rate s x HI Hin). apply uncongested_rate; auto.
Qed.

(** when the earliest timer fires, that transfer has moved exactly its volume
    and nobody else more than theirs *)
Theorem tick_exact s i d :
  Inv s -> argmin (map due (act s)) = Some (i, d) ->
  exists x, nth_error (act s) i = Some x /\ now s <= d /\ got d x == xvol x /\
            Forall (fun z => got d z <= xvol z) (act s).
Proof.
  intros (_ & Hs & _ & Hact) E. destruct (argmin_nth _ _ _ _ E) as (x & N & Hd & Hall).
  exists x. rewrite Forall_forall in Hact, Hall.
  pose proof (Hact x (nth_error_In _ _ N)) as Hx.
  pose proof (Xok_wr_pos _ _ _ Hs Hx) as Hw.
  split; [exact N|]. split; [|split].
  - rewrite <- Hd. apply (now_le_due s x Hs Hx).
  - rewrite <- Hd. apply eq_due_iff; [exact Hw|reflexivity].
  - rewrite Forall_forall. intros z Hz.
    apply le_due_iff; [exact (Xok_wr_pos _ _ _ Hs (Hact z Hz)) | exact (Hall z Hz)].
Qed.

(** the integral of the rate is exactly the volume *)
Theorem ftick_exact f y : 0 < frate f y ->
  famt y + (freach f y - fnow f) * frate f y == fvol y.
Proof. intros H. unfold freach. field. lra. Qed.

(** so nobody stays in the pipe after reaching its volume *)
Theorem advance_settled fuel : forall s t,
  Inv s -> (length (act s) <= fuel)%nat -> now s <= t ->
  now (advance fuel s (Fin t)) == t /\
  Forall (fun x => got t x < xvol x) (act (advance fuel s (Fin t))).
Proof.
  intros s t HI Hlen. revert fuel s Hlen HI.
  refine (advance_ind (Fin t) _ _ _).
  - intros k s Hall (_ & Hs & _ & Hact) Hnt. rewrite (advance_stop k s _ Hall). cbn.
    apply Qle_bool_iff in Hnt. rewrite Hnt. cbn. split; [reflexivity|].
    rewrite Forall_forall in *. intros z Hz.
    apply lt_due_iff; [exact (Xok_wr_pos _ _ _ Hs (Hact z Hz))|apply Qle_bool_false, (Hall z Hz)].
  - intros k s i d E L _ IH HI Hnt. rewrite (advance_step k s _ i d E L).
    destruct (argmin_nth _ _ _ _ E) as (x & N & _).
    destruct (tick_proj _ _ _ _ E N) as [Hn _].
    apply IH; [exact (tick_Inv s HI)|rewrite Hn; apply Qle_bool_iff, L].
Qed.

Theorem infinite_takes_no_time s id v :
  fin (join s id v Inf) = fin s ++ [(id, now s)] /\ act (join s id v Inf) = act s /\
  now (join s id v Inf) = now s.
Proof. cbn. auto. Qed.

Lemma fin_advance_incl b k s : (length (act s) <= k)%nat -> incl (fin s) (fin (advance k s b)).
Proof.
  revert k s. refine (advance_ind b _ _ _).
  - intros k s Hall. rewrite (advance_stop k s b Hall), set_now_fin. apply incl_refl.
  - intros k s i d E L _ IH. rewrite (advance_step k s b i d E L).
    destruct (argmin_nth _ _ _ _ E) as (x & N & _).
    destruct (tick_proj _ _ _ _ E N) as [_ Hf].
    refine (incl_tran _ IH). rewrite Hf. apply incl_appl, incl_refl.
Qed.

Lemma done_now b k s :
  (length (act s) <= k)%nat -> forall x,
  Inv s -> In x (act s) -> got (now s) x == xvol x -> le_ext (now s) b = true ->
  exists d, d == now s /\ In (xid x, d) (fin (advance k s b)).
Proof.
  revert k s. refine (advance_ind b _ _ _).
  - (* [x] is due now, and now is within the bound *)
    intros k s Hall x (_ & Hs & _ & Hact) Hin Hg Hb. rewrite Forall_forall in Hact, Hall.
    apply eq_due_iff in Hg; [|exact (Xok_wr_pos _ _ _ Hs (Hact x Hin))].
    rewrite (le_ext_compat _ _ b Hg), (Hall x Hin) in Hb. discriminate.
  - intros k s i d E L Hlen IH x HI Hin Hg Hb. rewrite (advance_step k s b i d E L).
    destruct (argmin_nth _ _ _ _ E) as (z & N & Hdz & Hall).
    pose proof HI as (_ & Hs & _ & Hact). rewrite Forall_forall in Hact, Hall.
    assert (Hd : d == now s).
    { apply eq_due_iff in Hg; [|exact (Xok_wr_pos _ _ _ Hs (Hact x Hin))].
      pose proof (now_le_due s z Hs (Hact z (nth_error_In _ _ N))) as Hz. rewrite Hdz in Hz.
      pose proof (Hall x Hin). lra. }
    destruct (tick_proj _ _ _ _ E N) as [Hn Hf].
    destruct (tick_keeps _ _ _ _ x E N Hin) as [->|(x' & I' & Hid & Hv & Hg')].
    + exists d. split; [exact Hd|]. apply (fin_advance_incl b k _ Hlen).
      rewrite Hf. apply in_or_app. right. left. reflexivity.
    + destruct (IH x' (tick_Inv s HI) I') as (d' & Hd' & Hin'').
      * rewrite Hn, Hg', Hv, (got_compat _ _ _ Hd). exact Hg.
      * rewrite Hn, (le_ext_compat _ _ b Hd). exact Hb.
      * exists d'. split; [rewrite Hd', Hn; exact Hd|]. rewrite <- Hid. exact Hin''.
Qed.

(** a zero-volume transfer is recorded complete at its own start time by whatever
    the machine does next ([apply] and [drain] always begin with this [advance]) *)
Theorem zero_volume_no_time s id l b :
  Inv s -> 0 < l -> le_ext (now s) b = true ->
  let s1 := join s id 0 (Fin l) in
  exists d, d == now s /\ In (id, d) (fin (advance (length (act s1)) s1 b)).
Proof.
  intros HI Hl Hb s1.
  assert (HI1 : Inv s1) by (apply join_Inv; auto; apply Qle_refl).
  set (x0 := mkX id l 0 0 (now s) (l * scl s)).
  assert (Hn : now s1 = now s) by apply throttle_proj.
  destruct (throttle_keeps s (act s ++ [x0]) x0) as (x' & I' & Hid & Hv & Hg');
    [apply in_or_app; right; left; reflexivity|].
  destruct (done_now b (length (act s1)) s1 (le_n _) x' HI1 I') as (d & Hd & Hin).
  - rewrite Hn, Hg', Hv. unfold got; cbn. ring.
  - rewrite Hn. exact Hb.
  - exists d. split; [rewrite Hd, Hn; reflexivity|]. change (xid x' = id) in Hid. rewrite <- Hid. exact Hin.
Qed.

(** a transfer that leaves stops occupying bandwidth at once *)
Theorem leave_frees_bandwidth s id x' :
  Inv s -> In x' (act (cancel s id)) ->
  xid x' <> id /\
  xwr x' == rate_of (thr s) (sum_lim (filter (fun x => negb (has_id id x)) (act s))) (xlim x').
Proof.
  intros HI Hin. pose proof (window_rate _ _ (cancel_Inv s id HI) Hin) as Hw.
  set (acts := filter _ (act s)).
  assert (thr (cancel s id) = thr s /\ sum_lim (act (cancel s id)) = sum_lim acts /\
          map xid (act (cancel s id)) = map xid acts) as (Et & Es & Ex).
  { destruct (cancel_eq s id) as [-> | [-> E]]; [|fold acts in E; rewrite E; auto].
    split; [apply throttle_proj|]. split; [apply throttle_sum_lim|apply throttle_xid]. }
  rewrite Et, Es in Hw. split; [|exact Hw].
  apply (in_map xid) in Hin. rewrite Ex in Hin.
  apply in_map_iff in Hin as (z & Hz & Hzin). apply filter_In in Hzin as [_ Hne].
  unfold has_id in Hne. rewrite Hz in Hne. intros Heq. rewrite Heq, Z.eqb_refl in Hne. discriminate.
Qed.

(** the rate the fluid machine integrates ([flow_to]) is the property's formula *)
Theorem frate_spec f tt y :
  fthr f = Fin tt -> 0 < tt -> Forall (fun y => 0 < flim y) (fact f) -> In y (fact f) ->
  frate f y == Qmin (flim y) (flim y * tt / sum_flim (fact f)).
Proof.
  intros HT Ht Hl Hin. unfold frate. rewrite HT. apply rate_spec; auto.
  - exact (qsum_pos flim _ y Hl Hin).
  - rewrite Forall_forall in Hl. apply Qlt_le_weak; auto.
Qed.

Theorem fluid_no_overshoot T ops :
  Tpos T -> Forall op_ok ops ->
  Forall (fun y => famt y <= fvol y) (fact (fold_left fapply ops (finit T))).
Proof.
  intros HT Hok. pose proof (reach_R T ops HT Hok) as (_ & _ & _ & _ & _ & Hact & _).
  eapply Forall2_right; [|exact Hact]. cbn.
  intros x y ((_ & _ & _ & _ & Hg) & _ & _ & Hv & Ha). rewrite Ha, <- Hv. exact Hg.
Qed.

(** satisfiability of the hypotheses, and the example of the class docstring:
    Pipe(3), two transfers of 15 with limit 3 take 10 time units *)
Example ex_hyps : Tpos (Fin 3) /\ Forall op_ok [Join 0 0 15 (Fin 3); Join 0 1 15 (Fin 3); Cancel 2 0].
Proof. split; [reflexivity|]. repeat constructor; cbn; lra. Qed.

Example ex_doc :
  run_case 3 1 [[0;0;0;1;15;1;3;1];[0;1;0;1;15;1;3;1]]%Z = [[0;10;1];[1;10;1]]%Z.
Proof. vm_compute. reflexivity. Qed.

(** a join in mid-flight with another limit, a zero volume, a cancellation and an
    infinite limit (ld = 0) *)
Example ex_mixed :
  run_case 3 1 [[0;0;0;1;15;1;3;1];[0;1;1;1;7;1;2;1];[0;2;2;1;0;1;2;1];[1;0;3;1]]%Z
  = [[2;2;1];[1;53;10]]%Z.
Proof. vm_compute. reflexivity. Qed.

Example ex_inv : Inv (init (Fin 3)).
Proof. apply (reach_Inv (Fin 3) []); [reflexivity | constructor]. Qed.
