(** C02: the two back ends of usim/_core/waitq.py (selected by USIM_WAITQUEUE) refine the abstract
    wait queue of Kernel.v ([list (xtime * list activation)], keys strictly increasing, [wq_push],
    pop = head bucket), hence produce the same results for every sequence of operations.

    Trusted contracts (not proved, they are about CPython / sortedcontainers):
    - dict: lookup/insert/pop by key equality ([==] on floats is [xeqb]), keys unique;
    - heapq: [heappush] adds one occurrence of the key to the bag, [heappop] returns a minimum
      element of the bag and removes one occurrence of it;
    - SortedDict: iteration order is key order, [popitem(0)] removes the item with the smallest key.
    Popping an empty queue raises in both back ends (IndexError resp. KeyError; the event loop
    guards every pop with [while self._activations]); it is modelled by the result [None]. *)
From Coq Require Import BinInt List Bool Permutation.
From Usim Require Import XTime Kernel.
Import ListNotations.

Definition bucket := list activation.
Definition wq := list (xtime * bucket).

Definition wq_pop (f : wq) : option (xtime * bucket * wq) :=
  match f with [] => None | (k, b) :: r => Some (k, b, r) end.
Definition wq_bool (f : wq) : bool := match f with [] => false | _ => true end.

Fixpoint ksorted (l : list xtime) : Prop :=
  match l with [] => True | k :: r => Forall (xlt k) r /\ ksorted r end.
Definition wq_ok (f : wq) : Prop := ksorted (map fst f).

(** dict operations on an association list (used for the dict and for the SortedDict) *)
(** [d[k]] *)
Fixpoint d_find (k : xtime) (d : wq) : option bucket :=
  match d with
  | [] => None
  | (k', vs) :: r => if xeqb k k' then Some vs else d_find k r
  end.
(** [d[k].append(v)] for a present key *)
Fixpoint d_append (k : xtime) (v : activation) (d : wq) : wq :=
  match d with
  | [] => []
  | (k', vs) :: r => if xeqb k k' then (k', vs ++ [v]) :: r else (k', vs) :: d_append k v r
  end.
(** [d.pop(k)] *)
Fixpoint d_remove (k : xtime) (d : wq) : option (bucket * wq) :=
  match d with
  | [] => None
  | (k', vs) :: r =>
      if xeqb k k' then Some (vs, r)
      else match d_remove k r with
           | Some (b, r') => Some (b, (k', vs) :: r')
           | None => None
           end
  end.

(** HQWaitQueue *)
Record hq := { h_data : wq (* the dict, insertion order *); h_keys : list xtime (* the heap, a bag *) }.
Definition hq_empty : hq := {| h_data := []; h_keys := [] |}.
Definition hq_bool (h : hq) : bool := match h_keys h with [] => false | _ => true end.

Definition heappush (k : xtime) (keys : list xtime) : list xtime := k :: keys.
Fixpoint kmin (m : xtime) (l : list xtime) : xtime :=
  match l with [] => m | a :: r => kmin (if xltb a m then a else m) r end.
Fixpoint remove1 (m : xtime) (l : list xtime) : list xtime :=
  match l with [] => [] | a :: r => if xeqb m a then r else a :: remove1 m r end.
Definition heappop (keys : list xtime) : option (xtime * list xtime) :=
  match keys with
  | [] => None
  | k0 :: ks => Some (kmin k0 ks, remove1 (kmin k0 ks) keys)
  end.

Definition hq_push (k : xtime) (v : activation) (h : hq) : hq :=
  match d_find k (h_data h) with
  | Some _ => {| h_data := d_append k v (h_data h); h_keys := h_keys h |}
  | None => {| h_data := h_data h ++ [(k, [v])]; h_keys := heappush k (h_keys h) |}
  end.
Definition hq_pop (h : hq) : option (xtime * bucket * hq) :=
  match heappop (h_keys h) with
  | None => None
  | Some (m, ks') =>
      match d_remove m (h_data h) with
      | None => None
      | Some (b, d') => Some (m, b, {| h_data := d'; h_keys := ks' |})
      end
  end.

(** SDWaitQueue *)
Definition sd := wq.
Definition sd_empty : sd := [].
Definition sd_bool (s : sd) : bool := match s with [] => false | _ => true end.
(** [sorted_dict[k] = b] for an absent key *)
Fixpoint sd_insert (k : xtime) (b : bucket) (s : sd) : sd :=
  match s with
  | [] => [(k, b)]
  | (k', vs) :: r => if xltb k k' then (k, b) :: s else (k', vs) :: sd_insert k b r
  end.
Definition sd_push (k : xtime) (v : activation) (s : sd) : sd :=
  match d_find k s with
  | Some _ => d_append k v s
  | None => sd_insert k [v] s
  end.
Definition sd_pop (s : sd) : option (xtime * bucket * sd) :=
  match s with [] => None | (k, b) :: r => Some (k, b, r) end.

Definition R (h : hq) (f : wq) : Prop :=
  wq_ok f /\ Permutation (h_data h) f /\ Permutation (h_keys h) (map fst f).
Definition RS (s : sd) (f : wq) : Prop := wq_ok f /\ s = f.

Lemma ksorted_NoDup l : ksorted l -> NoDup l.
Proof.
  induction l as [|a r IH]; simpl; [constructor|]. intros [HF HS]. constructor; auto.
  intro HI. rewrite Forall_forall in HF. exact (xlt_irrefl _ (HF _ HI)).
Qed.

Lemma d_find_none k d : d_find k d = None -> ~ In k (map fst d).
Proof.
  induction d as [|[k' vs] r IH]; simpl; intros H; [tauto|].
  destruct (xeqb k k') eqn:E; [discriminate|].
  intros [A|A]; [apply (xeqb_false _ _ E); congruence | exact (IH H A)].
Qed.
Lemma d_find_some k d b : d_find k d = Some b -> In k (map fst d).
Proof.
  induction d as [|[k' vs] r IH]; simpl; intros H; [discriminate|].
  destruct (xeqb k k') eqn:E.
  - left. apply xeqb_eq in E. congruence.
  - right. auto.
Qed.
Lemma map_fst_d_append k v d : map fst (d_append k v d) = map fst d.
Proof.
  induction d as [|[k' vs] r IH]; simpl; [reflexivity|].
  destruct (xeqb k k'); simpl; congruence.
Qed.

Lemma d_append_perm k v d f :
  Permutation d f -> NoDup (map fst d) -> Permutation (d_append k v d) (d_append k v f).
Proof.
  induction 1 as [|[k' vs] l l' HP IH|[k1 v1] [k2 v2] l|l l' l'' HP1 IH1 HP2 IH2]; intros ND.
  - constructor.
  - simpl. destruct (xeqb k k'); apply perm_skip; auto.
    apply IH. simpl in ND. inversion ND; auto.
  - simpl. destruct (xeqb k k1) eqn:E1; destruct (xeqb k k2) eqn:E2; try apply perm_swap.
    exfalso. apply xeqb_eq in E1, E2. subst. simpl in ND. inversion ND as [|? ? HN _]. apply HN. left; reflexivity.
  - eapply perm_trans; [apply IH1; exact ND|]. apply IH2.
    eapply Permutation_NoDup; [exact (Permutation_map fst HP1) | exact ND].
Qed.

Lemma d_remove_perm k b d :
  NoDup (map fst d) -> In (k, b) d ->
  exists d', d_remove k d = Some (b, d') /\ Permutation d ((k, b) :: d').
Proof.
  induction d as [|[k' vs] r IH]; simpl; intros ND HI; [tauto|].
  inversion ND as [|? ? HN ND']; subst.
  destruct (xeqb k k') eqn:E.
  - apply xeqb_eq in E. subst k'. destruct HI as [A|A].
    + inversion A; subst. exists r. split; [reflexivity | apply Permutation_refl].
    + exfalso. apply HN. change k with (fst (k, b)). apply in_map. exact A.
  - destruct HI as [A|A].
    + exfalso. apply (xeqb_false _ _ E). congruence.
    + destruct (IH ND' A) as (d' & Hr & Hp). rewrite Hr. eexists. split; [reflexivity|].
      eapply perm_trans; [apply perm_skip; exact Hp | apply perm_swap].
Qed.

Lemma wq_push_keys_in x k v f : In x (map fst (wq_push k v f)) -> x = k \/ In x (map fst f).
Proof.
  induction f as [|[k' vs] r IH]; simpl.
  - intros [A|[]]; auto.
  - destruct (xltb k k'); [|destruct (xeqb k k')]; simpl; intros H.
    + destruct H as [A|A]; auto.
    + auto.
    + destruct H as [A|A]; auto. apply IH in A. destruct A; auto.
Qed.

Lemma wq_push_ok k v f : wq_ok f -> wq_ok (wq_push k v f).
Proof.
  unfold wq_ok. induction f as [|[k' vs] r IH]; simpl; intros H.
  - split; constructor.
  - destruct H as [HF HS]. destruct (xltb k k') eqn:L; [|destruct (xeqb k k') eqn:E]; simpl.
    + split; [|split; assumption]. constructor; [exact L|].
      eapply Forall_impl; [|exact HF]. intros a Ha. eapply xlt_trans; [exact L | exact Ha].
    + split; assumption.
    + split; [|auto]. apply Forall_forall. intros x Hx. apply wq_push_keys_in in Hx.
      destruct Hx as [->|Hx].
      * exact (xlt_of_ltb_eqb_false _ _ L E).
      * rewrite Forall_forall in HF. auto.
Qed.

Lemma wq_push_present k v f : wq_ok f -> In k (map fst f) -> wq_push k v f = d_append k v f.
Proof.
  unfold wq_ok. induction f as [|[k' vs] r IH]; simpl; intros H HI; [tauto|].
  destruct H as [HF HS]. destruct (xltb k k') eqn:L.
  - exfalso. destruct HI as [A|A].
    + subst. exact (xlt_irrefl _ L).
    + rewrite Forall_forall in HF. apply (xlt_irrefl k). eapply xlt_trans; [exact L | auto].
  - destruct (xeqb k k') eqn:E; [reflexivity|]. f_equal. apply IH; auto.
    destruct HI as [A|A]; auto. exfalso. apply (xeqb_false _ _ E). congruence.
Qed.

Lemma wq_push_absent k v f : ~ In k (map fst f) -> Permutation (wq_push k v f) ((k, [v]) :: f).
Proof.
  induction f as [|[k' vs] r IH]; simpl; intros H; [apply Permutation_refl|].
  destruct (xltb k k'); [apply Permutation_refl|].
  destruct (xeqb k k') eqn:E.
  - exfalso. apply H. left. apply xeqb_eq in E. congruence.
  - eapply perm_trans; [apply perm_skip; apply IH; tauto | apply perm_swap].
Qed.

Lemma sd_insert_absent k v f : ~ In k (map fst f) -> sd_insert k [v] f = wq_push k v f.
Proof.
  induction f as [|[k' vs] r IH]; simpl; intros H; [reflexivity|].
  destruct (xltb k k'); [reflexivity|].
  destruct (xeqb k k') eqn:E.
  - exfalso. apply H. left. apply xeqb_eq in E. congruence.
  - f_equal. apply IH. tauto.
Qed.

Lemma kmin_in m l : In (kmin m l) (m :: l).
Proof.
  revert m; induction l as [|a r IH]; intros m; simpl; [auto|].
  specialize (IH (if xltb a m then a else m)).
  destruct (xltb a m); simpl in IH; destruct IH; auto.
Qed.
Lemma kmin_le m l x : In x (m :: l) -> xle (kmin m l) x.
Proof.
  revert m x; induction l as [|a r IH]; intros m x H; simpl.
  - destruct H as [<-|[]]. apply xle_refl.
  - set (m' := if xltb a m then a else m).
    assert (Hm : xle m' m /\ xle m' a).
    { unfold m'. destruct (xltb a m) eqn:E.
      - split; [apply xlt_le; exact E | apply xle_refl].
      - split; [apply xle_refl | apply xltb_false_xleb; exact E]. }
    destruct H as [<-|[<-|H]].
    + eapply xle_trans; [apply IH; left; reflexivity | tauto].
    + eapply xle_trans; [apply IH; left; reflexivity | tauto].
    + apply IH. right. exact H.
Qed.
Lemma remove1_perm m l : In m l -> Permutation l (m :: remove1 m l).
Proof.
  induction l as [|a r IH]; simpl; intros H; [tauto|].
  destruct (xeqb m a) eqn:E.
  - apply xeqb_eq in E. subst. apply Permutation_refl.
  - destruct H as [A|A]; [exfalso; apply (xeqb_false _ _ E); congruence|].
    eapply perm_trans; [apply perm_skip; apply IH; exact A | apply perm_swap].
Qed.

Lemma R_empty : R hq_empty [].
Proof. split; [exact I|]. split; constructor. Qed.

Lemma R_nodup h f : R h f -> NoDup (map fst (h_data h)).
Proof.
  intros (HS & HD & _). apply (Permutation_NoDup (Permutation_sym (Permutation_map fst HD))), ksorted_NoDup, HS.
Qed.
Lemma R_in_keys h f k : R h f -> In k (map fst (h_data h)) <-> In k (map fst f).
Proof.
  intros (_ & HD & _). split; apply Permutation_in; [|apply Permutation_sym]; exact (Permutation_map fst HD).
Qed.
Lemma R_nil h f : R h f -> h_keys h = [] <-> f = [].
Proof.
  intros (_ & _ & HK). split; intros E; rewrite E in HK.
  - apply Permutation_nil in HK. destruct f; [reflexivity | discriminate].
  - apply Permutation_sym, Permutation_nil in HK. exact HK.
Qed.

Theorem hq_push_refines k v h f : R h f -> R (hq_push k v h) (wq_push k v f).
Proof.
  intros HR. pose proof HR as (HS & HD & HK). unfold hq_push. destruct (d_find k (h_data h)) eqn:F.
  - apply d_find_some, (R_in_keys _ _ _ HR) in F.
    rewrite (wq_push_present _ v _ HS F). split; [|split]; cbn [h_data h_keys].
    + unfold wq_ok. rewrite map_fst_d_append. exact HS.
    + exact (d_append_perm _ _ _ _ HD (R_nodup _ _ HR)).
    + rewrite map_fst_d_append. exact HK.
  - apply d_find_none in F. rewrite (R_in_keys _ _ _ HR) in F. pose proof (wq_push_absent k v f F) as HP.
    split; [|split]; cbn [h_data h_keys].
    + apply wq_push_ok, HS.
    + rewrite HP, <- HD. apply Permutation_sym, Permutation_cons_append.
    + rewrite HP. apply perm_skip, HK.
Qed.

Theorem hq_pop_refines h f : R h f ->
  match f with
  | [] => hq_pop h = None
  | (k, b) :: f' => exists h', hq_pop h = Some (k, b, h') /\ R h' f'
  end.
Proof.
  intros HR. pose proof HR as (HS & HD & HK). pose proof (R_nil _ _ HR) as HN. unfold hq_pop, heappop.
  destruct f as [|[k b] f']; [rewrite (proj2 HN eq_refl); reflexivity|].
  destruct (h_keys h) as [|k0 ks]; [discriminate (proj1 HN eq_refl)|]. destruct HS as [HF HS'].
  assert (Hk : In k (k0 :: ks)) by (apply (Permutation_in _ (Permutation_sym HK)); left; reflexivity).
  assert (Hm : kmin k0 ks = k).
  { pose proof (kmin_le k0 ks k Hk) as Hle. destruct (Permutation_in _ HK (kmin_in k0 ks)) as [A|A]; [auto|].
    rewrite Forall_forall in HF. destruct (xlt_irrefl k (xlt_le_trans _ _ _ (HF _ A) Hle)). }
  rewrite Hm.
  destruct (d_remove_perm k b _ (R_nodup _ _ HR) (Permutation_in _ (Permutation_sym HD) (or_introl eq_refl)))
    as (d' & -> & Hp).
  eexists. split; [reflexivity|]. split; [|split]; cbn [h_data h_keys].
  - exact HS'.
  - apply Permutation_cons_inv with (a := (k, b)). rewrite <- Hp. exact HD.
  - apply Permutation_cons_inv with (a := k). rewrite <- (remove1_perm _ _ Hk). exact HK.
Qed.

Theorem hq_bool_refines h f : R h f -> hq_bool h = wq_bool f.
Proof.
  intros HR. pose proof (R_nil _ _ HR) as HN. unfold hq_bool.
  destruct (h_keys h), f; try reflexivity; [discriminate (proj1 HN eq_refl) | discriminate (proj2 HN eq_refl)].
Qed.

Lemma RS_empty : RS sd_empty [].
Proof. split; [exact I | reflexivity]. Qed.

Theorem sd_push_refines k v s f : RS s f -> RS (sd_push k v s) (wq_push k v f).
Proof.
  intros [HS ->]. split; [apply wq_push_ok; exact HS|].
  unfold sd_push. destruct (d_find k f) eqn:F.
  - symmetry. apply wq_push_present; [exact HS | exact (d_find_some _ _ _ F)].
  - apply sd_insert_absent. exact (d_find_none _ _ F).
Qed.

Theorem sd_pop_refines s f : RS s f ->
  match f with
  | [] => sd_pop s = None
  | (k, b) :: f' => exists s', sd_pop s = Some (k, b, s') /\ RS s' f'
  end.
Proof.
  intros [HS ->]. destruct f as [|[k b] f']; [reflexivity|].
  exists f'. split; [reflexivity|]. split; [|reflexivity].
  unfold wq_ok in *. simpl in HS. tauto.
Qed.

Theorem sd_bool_refines s f : RS s f -> sd_bool s = wq_bool f.
Proof. intros [_ ->]. reflexivity. Qed.

Inductive wop := Push (k : xtime) (v : activation) | Pop.
Inductive wres := ResPush | ResPop (r : option (xtime * bucket)).

(** observed: each operation's result and the queue's truth value after it *)
Fixpoint wq_run (ops : list wop) (f : wq) : list (wres * bool) :=
  match ops with
  | [] => []
  | Push k v :: r => let f' := wq_push k v f in (ResPush, wq_bool f') :: wq_run r f'
  | Pop :: r =>
      match wq_pop f with
      | None => (ResPop None, wq_bool f) :: wq_run r f
      | Some (k, b, f') => (ResPop (Some (k, b)), wq_bool f') :: wq_run r f'
      end
  end.
Fixpoint hq_run (ops : list wop) (h : hq) : list (wres * bool) :=
  match ops with
  | [] => []
  | Push k v :: r => let h' := hq_push k v h in (ResPush, hq_bool h') :: hq_run r h'
  | Pop :: r =>
      match hq_pop h with
      | None => (ResPop None, hq_bool h) :: hq_run r h
      | Some (k, b, h') => (ResPop (Some (k, b)), hq_bool h') :: hq_run r h'
      end
  end.
Fixpoint sd_run (ops : list wop) (s : sd) : list (wres * bool) :=
  match ops with
  | [] => []
  | Push k v :: r => let s' := sd_push k v s in (ResPush, sd_bool s') :: sd_run r s'
  | Pop :: r =>
      match sd_pop s with
      | None => (ResPop None, sd_bool s) :: sd_run r s
      | Some (k, b, s') => (ResPop (Some (k, b)), sd_bool s') :: sd_run r s'
      end
  end.

Lemma hq_run_spec ops : forall h f, R h f -> hq_run ops h = wq_run ops f.
Proof.
  induction ops as [|[k v|] r IH]; intros h f HR; simpl; [reflexivity| |].
  - pose proof (hq_push_refines k v _ _ HR) as HR'.
    rewrite (hq_bool_refines _ _ HR'). f_equal. apply IH. exact HR'.
  - pose proof (hq_pop_refines _ _ HR) as HP. destruct f as [|[k b] f']; simpl.
    + rewrite HP. rewrite (hq_bool_refines _ _ HR). f_equal. apply IH. exact HR.
    + destruct HP as (h' & E & HR'). rewrite E. rewrite (hq_bool_refines _ _ HR').
      f_equal. apply IH. exact HR'.
Qed.
Lemma sd_run_spec ops : forall s f, RS s f -> sd_run ops s = wq_run ops f.
Proof.
  induction ops as [|[k v|] r IH]; intros s f HR; simpl; [reflexivity| |].
  - pose proof (sd_push_refines k v _ _ HR) as HR'.
    rewrite (sd_bool_refines _ _ HR'). f_equal. apply IH. exact HR'.
  - pose proof (sd_pop_refines _ _ HR) as HP. destruct f as [|[k b] f']; simpl.
    + rewrite HP. rewrite (sd_bool_refines _ _ HR). f_equal. apply IH. exact HR.
    + destruct HP as (s' & E & HR'). rewrite E. rewrite (sd_bool_refines _ _ HR').
      f_equal. apply IH. exact HR'.
Qed.

Theorem hq_sd_equiv ops : hq_run ops hq_empty = sd_run ops sd_empty.
Proof. rewrite (hq_run_spec ops _ _ R_empty), (sd_run_spec ops _ _ RS_empty). reflexivity. Qed.

Definition act (n : nat) (t : xtime) : activation := {| a_tgt := n; a_sig := None; a_seq := n; a_due := t |}.
Definition ex_ops : list wop :=
  [ Push (Fin 5) (act 0 (Fin 5)); Push (Fin 2) (act 1 (Fin 2)); Push PInf (act 2 PInf);
    Push (Fin 5) (act 3 (Fin 5)); Push (Fin 3) (act 4 (Fin 3)); Pop; Push (Fin 3) (act 5 (Fin 3));
    Pop; Pop; Pop; Pop ].
Definition ex_res : list (wres * bool) :=
  [ (ResPush, true); (ResPush, true); (ResPush, true); (ResPush, true); (ResPush, true);
    (ResPop (Some (Fin 2, [act 1 (Fin 2)])), true); (ResPush, true);
    (ResPop (Some (Fin 3, [act 4 (Fin 3); act 5 (Fin 3)])), true);
    (ResPop (Some (Fin 5, [act 0 (Fin 5); act 3 (Fin 5)])), true);
    (ResPop (Some (PInf, [act 2 PInf])), false);
    (ResPop None, false) ].
Example ex_both : hq_run ex_ops hq_empty = ex_res /\ sd_run ex_ops sd_empty = ex_res.
Proof. split; vm_compute; reflexivity. Qed.

Print Assumptions hq_sd_equiv.
