(** C08 -- conditions: truth of derived conditions is boolean algebra on the current values, the fuel of
    [cond_true] is adequate, the false-leaf subscription of connectives (fix D4a) cannot miss a wake-up,
    subscribing to a true condition delivers immediately.  All statements are about the very functions the
    whole-program machine executes (Lib.v / Scenario.v), for all expression trees and all well-formed states. *)
From Coq Require Import ZArith List Bool Lia.
From RecordUpdate Require Import RecordSet.
From Usim Require Import XTime Tables Kernel Machine MachineProps Lib Scenario ScenarioProps ListFacts.
Import ListNotations.
Import RecordSetNotations.

Lemma forallb_ext_in {A} (f g : A -> bool) l : (forall x, In x l -> f x = g x) -> forallb f l = forallb g l.
Proof. induction l as [|a l IH]; cbn; intros H; auto. rewrite (H a), IH; auto. Qed.
Lemma existsb_ext_in {A} (f g : A -> bool) l : (forall x, In x l -> f x = g x) -> existsb f l = existsb g l.
Proof. induction l as [|a l IH]; cbn; intros H; auto. rewrite (H a), IH; auto. Qed.
Lemma flat_map_ext_in {A B} (f g : A -> list B) l : (forall x, In x l -> f x = g x) -> flat_map f l = flat_map g l.
Proof. induction l as [|a l IH]; cbn; intros H; auto. rewrite (H a), IH; auto. Qed.
Lemma flat_map_nil {A B} (f : A -> list B) l : (forall x, In x l -> f x = []) -> flat_map f l = [].
Proof. induction l as [|a l IH]; cbn; intros H; auto. rewrite (H a), IH; auto. Qed.
Lemma forallb_false_ex {A} (f : A -> bool) l : forallb f l = false -> exists x, In x l /\ f x = false.
Proof.
  induction l as [|a l IH]; cbn; [discriminate|]. destruct (f a) eqn:E; cbn; intros H.
  - destruct (IH H) as (x & Hx & Hf). exists x; auto.
  - exists a; auto.
Qed.

(** [NAll] and [NAny], and what they compute, as one family: [true] is the conjunction *)
Definition conn (b : bool) (cs : list nid) : nkind := if b then NAll cs else NAny cs.
Definition evalb (b : bool) (f : nid -> bool) (l : list nid) : bool := if b then forallb f l else existsb f l.
Definition opb (b : bool) : bool -> bool -> bool := if b then andb else orb.
Lemma evalb_ext_in b f g l : (forall x, In x l -> f x = g x) -> evalb b f l = evalb b g l.
Proof. destruct b; [apply forallb_ext_in | apply existsb_ext_in]. Qed.
Lemma evalb_cons b f x l : evalb b f (x :: l) = opb b (f x) (evalb b f l).
Proof. now destruct b. Qed.
Lemma evalb_app b f l1 l2 : evalb b f (l1 ++ l2) = opb b (evalb b f l1) (evalb b f l2).
Proof. destruct b; [apply forallb_app | apply existsb_app]. Qed.
Lemma negb_opb b x y : negb (opb b x y) = opb (negb b) (negb x) (negb y).
Proof. destruct b; [apply negb_andb | apply negb_orb]. Qed.

Definition is_conn (k : nkind) : bool := match k with NAll _ | NAny _ => true | _ => false end.
Definition children (k : nkind) : list nid := match k with NAll cs | NAny cs => cs | _ => [] end.
Lemma is_conn_conn b cs : is_conn (conn b cs) = true.
Proof. now destruct b. Qed.
Lemma children_conn b cs : children (conn b cs) = cs.
Proof. now destruct b. Qed.

(** operands are older objects than the connective that holds them *)
Definition graph_wf (o : objs) : Prop := forall n c, In c (children (kind_of o n)) -> c < n.

Lemma graph_ind o : graph_wf o -> forall P : nat -> Prop,
  (forall n, (forall c, In c (children (kind_of o n)) -> P c) -> P n) -> forall n : nat, P n.
Proof. intros G P H n. induction n as [n IH] using lt_wf_ind. apply H. intros c Hc. apply IH, (G n c Hc). Qed.

Lemma get_notif_oob o n : length (notifs o) <= n -> get_notif o n = dnotif.
Proof. intros H. unfold get_notif. now rewrite nth_overflow. Qed.
Lemma kind_oob o n : length (notifs o) <= n -> kind_of o n = NPlain.
Proof. intros H. unfold kind_of. now rewrite get_notif_oob. Qed.
Lemma kind_range o n : kind_of o n <> NPlain -> n < length (notifs o).
Proof. intros H. destruct (Nat.lt_ge_cases n (length (notifs o))); auto. elim H. now apply kind_oob. Qed.
Lemma conn_range o n c : In c (children (kind_of o n)) -> n < length (notifs o).
Proof. intros H. apply kind_range. intros E. rewrite E in H. exact H. Qed.

(** one unfolding of [cond_true_f], on the kind of the node *)
Definition cond_step (rec : nid -> bool) (o : objs) (k : nkind) : bool :=
  match k with
  | NPlain => false
  | NFlag f => fval (get_flag o f)
  | NInvFlag f => negb (fval (get_flag o f))
  | NAfter d => xleb d (onow o)
  | NBefore d => xltb (onow o) d
  | NMoment d _ => xeqb (onow o) d
  | NEternity => false
  | NInstant => true
  | NDelay _ => false
  | NCmp v op z => cmp_eval op (tval (get_track o v)) z
  | NCmp2 v op v2 => cmp_eval op (tval (get_track o v)) (tval (get_track o v2))
  | NDone t => t_doneval (get_task o t)
  | NNotDone t => negb (t_doneval (get_task o t))
  | NAll cs => forallb rec cs
  | NAny cs => existsb rec cs
  end.
Lemma cond_true_f_S fuel o n : cond_true_f (S fuel) o n = cond_step (cond_true_f fuel o) o (kind_of o n).
Proof. reflexivity. Qed.
Lemma cond_step_ext r1 r2 o k : (forall c, In c (children k) -> r1 c = r2 c) -> cond_step r1 o k = cond_step r2 o k.
Proof. destruct k; cbn; auto using forallb_ext_in, existsb_ext_in. Qed.
Lemma cond_step_conn r o b cs : cond_step r o (conn b cs) = evalb b r cs.
Proof. now destruct b. Qed.

(** [cond_true_f] and [pending_f] recurse on fuel and call themselves on operands only: above the node's index
    the fuel does not matter, and at the fuel of [cond_true] / [pending_children] the unfolding is a fixed point *)
Section Fuel.
  Context {A : Type} (o : objs) (step : (nid -> A) -> nkind -> A) (F : nat -> nid -> A).
  Hypothesis G : graph_wf o.
  Hypothesis step_ext : forall r1 r2 k, (forall c, In c (children k) -> r1 c = r2 c) -> step r1 k = step r2 k.
  Hypothesis F_S : forall fuel n, F (S fuel) n = step (F fuel) (kind_of o n).

  Lemma fuel_adequate : forall f1 f2 n, n < f1 -> n < f2 -> F f1 n = F f2 n.
  Proof.
    induction f1 as [|f1 IH]; intros f2 n H1 H2; [lia|]. destruct f2 as [|f2]; [lia|].
    rewrite !F_S. apply step_ext. intros c Hc. apply G in Hc. apply IH; lia.
  Qed.
  Lemma fuel_fix n : F (S (length (notifs o))) n = step (F (S (length (notifs o)))) (kind_of o n).
  Proof.
    rewrite F_S. apply step_ext. intros c Hc. pose proof (conn_range o n c Hc). apply G in Hc.
    apply fuel_adequate; lia.
  Qed.
End Fuel.

Theorem cond_true_fuel o fuel n : graph_wf o -> n < fuel -> cond_true_f fuel o n = cond_true o n.
Proof.
  intros G H. unfold cond_true. destruct (Nat.lt_ge_cases n (S (length (notifs o)))) as [L|L].
  - apply (fuel_adequate o (fun r => cond_step r o) (fun f => cond_true_f f o) G); auto using cond_step_ext.
  - destruct fuel; [lia|]. rewrite !cond_true_f_S, kind_oob by lia. reflexivity.
Qed.
Lemma cond_true_eq o n : graph_wf o -> cond_true o n = cond_step (cond_true o) o (kind_of o n).
Proof. intros G. apply (fuel_fix o (fun r => cond_step r o) (fun f => cond_true_f f o) G); auto using cond_step_ext. Qed.
Lemma cond_true_kind o n k : graph_wf o -> kind_of o n = k -> cond_true o n = cond_step (cond_true o) o k.
Proof. intros G <-. now apply cond_true_eq. Qed.

Definition pend_child (rec : nid -> list nid) (o : objs) (c : nid) : list nid :=
  if cond_true o c then [] else if is_conn (kind_of o c) then rec c else [c].
Definition pend_step (rec : nid -> list nid) (o : objs) (k : nkind) : list nid :=
  if is_conn k then flat_map (pend_child rec o) (children k) else [].
Lemma pending_f_S fuel o n : pending_f (S fuel) o n = pend_step (pending_f fuel o) o (kind_of o n).
Proof.
  assert (C : forall c, (if cond_true o c then [] else
                          match kind_of o c with NAll _ | NAny _ => pending_f fuel o c | _ => [c] end)
                        = pend_child (pending_f fuel o) o c).
  { intros c. unfold pend_child. destruct (cond_true o c); auto. destruct (kind_of o c); auto. }
  cbn [pending_f]. change (nk (get_notif o n)) with (kind_of o n). unfold pend_step.
  destruct (kind_of o n); cbn [is_conn children]; auto; apply flat_map_ext; exact C.
Qed.
Lemma pend_step_ext r1 r2 o k : (forall c, In c (children k) -> r1 c = r2 c) -> pend_step r1 o k = pend_step r2 o k.
Proof.
  intros H. unfold pend_step. destruct (is_conn k); auto. apply flat_map_ext_in. intros c Hc.
  unfold pend_child. now rewrite (H c Hc).
Qed.
Lemma pending_eq o n : graph_wf o -> pending_children o n = pend_step (pending_children o) o (kind_of o n).
Proof. intros G. apply (fuel_fix o (fun r => pend_step r o) (fun f => pending_f f o) G); auto using pend_step_ext, pending_f_S. Qed.

(** truth depends only on the graph below the node and on the current values *)
Definition env_same (o o' : objs) : Prop :=
  onow o' = onow o /\ (forall f, fval (get_flag o' f) = fval (get_flag o f)) /\
  (forall v, tval (get_track o' v) = tval (get_track o v)) /\
  (forall t, t_doneval (get_task o' t) = t_doneval (get_task o t)).
Definition same_graph (o o' : objs) : Prop := forall n, kind_of o' n = kind_of o n.

Lemma env_same_trans a b c : env_same a b -> env_same b c -> env_same a c.
Proof. intros (A1 & A2 & A3 & A4) (B1 & B2 & B3 & B4). repeat split; intros; congruence. Qed.
Lemma cond_step_env r o o' k : env_same o o' -> cond_step r o' k = cond_step r o k.
Proof. intros (E1 & E2 & E3 & E4). destruct k; cbn; rewrite ?E1, ?E2, ?E3, ?E4; reflexivity. Qed.
Lemma cond_true_agree o o' : graph_wf o -> graph_wf o' -> env_same o o' -> forall n,
  (forall m, m <= n -> kind_of o' m = kind_of o m) -> cond_true o' n = cond_true o n.
Proof.
  intros G G' E n. induction n as [n IH] using (graph_ind o G). intros K.
  rewrite (cond_true_eq o n G), (cond_true_eq o' n G'), (K n (le_n n)), (cond_step_env _ _ _ _ E).
  apply cond_step_ext. intros c Hc. apply (IH c Hc). intros m Hm. apply K. apply G in Hc. lia.
Qed.
Lemma same_graph_wf o o' : same_graph o o' -> graph_wf o -> graph_wf o'.
Proof. intros S G n c. rewrite S. apply G. Qed.
Lemma cond_true_same o o' n : graph_wf o -> same_graph o o' -> env_same o o' -> cond_true o' n = cond_true o n.
Proof. intros G S E. apply cond_true_agree; auto. eapply same_graph_wf; eauto. Qed.

(** what [mk_notif] may do: append notification objects, register listeners *)
Record ext (o o' : objs) : Prop := mk_ext {
  ext_notifs : exists l, notifs o' = notifs o ++ l;
  ext_kern : kern o' = kern o;
  ext_flags : flags o' = flags o;
  ext_tasks : tasks o' = tasks o;
  ext_tnames : tnames o' = tnames o;
  ext_tlen : length (tracked o') = length (tracked o);
  ext_tval : forall v, tval (get_track o' v) = tval (get_track o v);
  ext_tlis : forall v x, In x (tlisteners (get_track o v)) -> In x (tlisteners (get_track o' v)) }.

Lemma ext_refl o : ext o o.
Proof. split; auto. exists []. now rewrite app_nil_r. Qed.
Lemma ext_trans o1 o2 o3 : ext o1 o2 -> ext o2 o3 -> ext o1 o3.
Proof.
  intros [[l1 N1] K1 F1 T1 Tn1 L1 V1 I1] [[l2 N2] K2 F2 T2 Tn2 L2 V2 I2]. split; try (intros; congruence).
  - exists (l1 ++ l2). rewrite N2, N1, app_assoc. reflexivity.
  - intros v x H. apply I2, I1, H.
Qed.
Lemma ext_len o o' : ext o o' -> length (notifs o) <= length (notifs o').
Proof. intros [[l N] _ _ _ _ _ _ _]. rewrite N, app_length. lia. Qed.
Lemma ext_kind o o' n : ext o o' -> n < length (notifs o) -> kind_of o' n = kind_of o n.
Proof. intros [[l N] _ _ _ _ _ _ _] H. unfold kind_of, get_notif. rewrite N, app_nth1; auto. Qed.
Lemma ext_env o o' : ext o o' -> env_same o o'.
Proof.
  intros [_ K F T _ _ V _]. unfold env_same, onow, get_flag, get_task. rewrite K, F, T. auto.
Qed.
Lemma cond_true_ext o o' n : graph_wf o -> graph_wf o' -> ext o o' -> n < length (notifs o) ->
  cond_true o' n = cond_true o n.
Proof. intros G G' E H. apply cond_true_agree; auto using ext_env. intros m Hm. apply ext_kind; auto. lia. Qed.

Lemma ext_alloc o k : ext o (fst (alloc_notif o k)).
Proof. split; auto. eexists; reflexivity. Qed.
Lemma notifs_alloc o k : notifs (fst (alloc_notif o k)) = notifs o ++ [{| nk := k; waiting := []; trig := false |}].
Proof. reflexivity. Qed.
Lemma kind_of_alloc o k n :
  kind_of (fst (alloc_notif o k)) n = if Nat.eqb n (length (notifs o)) then k else kind_of o n.
Proof.
  unfold kind_of, get_notif. rewrite notifs_alloc. destruct (Nat.eqb_spec n (length (notifs o))) as [->|N].
  - rewrite app_nth2, Nat.sub_diag; auto.
  - destruct (Nat.lt_ge_cases n (length (notifs o))).
    + rewrite app_nth1; auto.
    + rewrite !nth_overflow; auto. rewrite app_length; cbn; lia.
Qed.
Lemma len_alloc o k : length (notifs (fst (alloc_notif o k))) = S (length (notifs o)).
Proof. rewrite notifs_alloc, app_length. cbn [length]. lia. Qed.
Lemma alloc_notif_eq o k o' m : alloc_notif o k = (o', m) -> o' = fst (alloc_notif o k) /\ m = length (notifs o).
Proof. unfold alloc_notif. intros H. inversion H. split; reflexivity. Qed.

Lemma get_track_add_listener o v m v' :
  get_track (add_listener o v m) v' =
  if Nat.eqb v' v && Nat.ltb v (length (tracked o))
  then (get_track o v) <| tlisteners := tlisteners (get_track o v) ++ [m] |> else get_track o v'.
Proof. apply nth_list_upd. Qed.
Lemma ext_add_listener o v m : ext o (add_listener o v m).
Proof.
  split; try reflexivity.
  - exists []. symmetry. apply app_nil_r.
  - exact (length_list_upd _ _ _).
  - intros v'. apply (nth_list_upd_proj tval). reflexivity.
  - intros v' x H. rewrite get_track_add_listener. destruct (_ && _) eqn:E; auto.
    apply andb_true_iff in E. destruct E as [E _]. apply Nat.eqb_eq in E. subst. cbn. apply in_or_app; auto.
Qed.
Lemma in_add_listener o v m : v < length (tracked o) -> In m (tlisteners (get_track (add_listener o v m) v)).
Proof.
  intros H. rewrite get_track_add_listener, Nat.eqb_refl. apply Nat.ltb_lt in H. rewrite H. cbn.
  apply in_elt.
Qed.

Definition node_ok (o : objs) (n : nid) (k : nkind) : Prop :=
  match k with
  | NAll cs | NAny cs => cs <> [] /\ forall c, In c cs -> c < n
  | NMoment d na => na < n /\ kind_of o na = NAfter d
  | NFlag f | NInvFlag f => f < length (flags o)
  | NDone t | NNotDone t => t < length (tasks o)
  | NCmp v _ _ => v < length (tracked o) /\ In n (tlisteners (get_track o v))
  | NCmp2 v _ v2 => v < length (tracked o) /\ v2 < length (tracked o) /\
                    In n (tlisteners (get_track o v)) /\ In n (tlisteners (get_track o v2))
  | _ => True
  end.

Record wf (o : objs) : Prop := mk_wf {
  wf_node : forall n, node_ok o n (kind_of o n);
  wf_flag : forall f, f < length (flags o) ->
            kind_of o (fnid (get_flag o f)) = NFlag f /\ kind_of o (finv (get_flag o f)) = NInvFlag f;
  wf_task : forall t, t < length (tasks o) ->
            kind_of o (t_done (get_task o t)) = NDone t /\ kind_of o (t_notdone (get_task o t)) = NNotDone t;
  wf_tnames : forall k t, assoc_nat k (tnames o) = Some t -> t < length (tasks o) }.

Lemma node_ok_conn o n b cs : node_ok o n (conn b cs) <-> cs <> [] /\ forall c, In c cs -> c < n.
Proof. now destruct b. Qed.
Lemma node_ok_children o n k c : node_ok o n k -> In c (children k) -> c < n.
Proof. destruct k; cbn; try contradiction; intros [_ H]; apply H. Qed.
Lemma wf_graph o : wf o -> graph_wf o.
Proof. intros W n c. apply (node_ok_children o), W. Qed.
#[export] Hint Resolve wf_graph : core.
Lemma wf_conn o n b cs : wf o -> kind_of o n = conn b cs -> cs <> [] /\ forall c, In c cs -> c < n.
Proof. intros W K. apply (node_ok_conn o n b cs). rewrite <- K. apply W. Qed.

(** what keeps [node_ok] *)
Record grows (o o' : objs) : Prop := mk_grows {
  gr_kind : forall n, n < length (notifs o) -> kind_of o' n = kind_of o n;
  gr_flags : length (flags o) <= length (flags o');
  gr_tasks : length (tasks o) <= length (tasks o');
  gr_tlen : length (tracked o) <= length (tracked o');
  gr_tlis : forall v x, In x (tlisteners (get_track o v)) -> In x (tlisteners (get_track o' v)) }.
Lemma grows_kind o o' n k : grows o o' -> k <> NPlain -> kind_of o n = k -> kind_of o' n = k.
Proof. intros Gr Ne K. rewrite (gr_kind _ _ Gr); auto. apply kind_range. now rewrite K. Qed.
Lemma node_ok_grows o o' n k : grows o o' -> node_ok o n k -> node_ok o' n k.
Proof.
  intros Gr. pose proof Gr as [_ F T L I]. destruct k; cbn; auto; try lia.
  - intros [H1 H2]; split; auto. now apply (grows_kind o o' _ _ Gr).
  - intros [H1 H2]; split; auto. lia.
  - intros (H1 & H2 & H3 & H4). repeat split; auto; lia.
Qed.
Lemma ext_grows o o' : ext o o' -> grows o o'.
Proof.
  intros E. split; [intros n; apply (ext_kind _ _ _ E) | | | | exact (ext_tlis _ _ E)].
  - now rewrite (ext_flags _ _ E).
  - now rewrite (ext_tasks _ _ E).
  - now rewrite (ext_tlen _ _ E).
Qed.

Lemma wf_extend o o' : wf o -> ext o o' ->
  (forall n, length (notifs o) <= n -> node_ok o' n (kind_of o' n)) -> wf o'.
Proof.
  intros W E New. pose proof (ext_grows _ _ E) as Gr. split.
  - intros n. destruct (Nat.lt_ge_cases n (length (notifs o))); auto.
    rewrite (ext_kind _ _ _ E); auto. apply (node_ok_grows o _ _ _ Gr), W.
  - intros f. unfold get_flag. rewrite (ext_flags _ _ E). intros Hf. destruct (wf_flag _ W f Hf) as [A B].
    split; apply (grows_kind o _ _ _ Gr); try discriminate; assumption.
  - intros t. unfold get_task. rewrite (ext_tasks _ _ E). intros Ht. destruct (wf_task _ W t Ht) as [A B].
    split; apply (grows_kind o _ _ _ Gr); try discriminate; assumption.
  - rewrite (ext_tnames _ _ E), (ext_tasks _ _ E). apply W.
Qed.
Lemma wf_add_listener o v m : wf o -> wf (add_listener o v m).
Proof.
  intros W. apply wf_extend with o; auto using ext_add_listener. intros n Hn.
  rewrite (kind_oob (add_listener o v m) n Hn). exact I.
Qed.

Lemma alloc_post o k : wf o -> node_ok (fst (alloc_notif o k)) (length (notifs o)) k ->
  let o' := fst (alloc_notif o k) in let m := length (notifs o) in
  wf o' /\ ext o o' /\ m < length (notifs o') /\ kind_of o' m = k /\ cond_true o' m = cond_step (cond_true o) o k.
Proof.
  intros W N o' m. pose proof (ext_alloc o k) as E.
  assert (K : kind_of o' m = k) by (unfold o', m; now rewrite kind_of_alloc, Nat.eqb_refl).
  assert (W' : wf o').
  { apply wf_extend with o; auto. intros n Hn. unfold o'. rewrite kind_of_alloc.
    destruct (Nat.eqb_spec n (length (notifs o))) as [->|]; auto. rewrite kind_oob by lia. exact I. }
  split; [exact W'|]. split; [exact E|]. split; [unfold o', m; rewrite len_alloc; lia|]. split; [exact K|].
  rewrite (cond_true_kind o' m k (wf_graph _ W') K), (cond_step_env _ _ _ _ (ext_env _ _ E)).
  apply cond_step_ext. intros c Hc. apply cond_true_ext; auto. exact (node_ok_children _ _ _ _ N Hc).
Qed.

(** reference semantics of expressions *)
Fixpoint sem (o : objs) (w : wt) : bool :=
  match w with
  | WDelay d => xeqb d (Fin 0)
  | WAfter t => xleb t (onow o)
  | WBefore t => xltb (onow o) t
  | WMoment t => xeqb (onow o) t
  | WInstant => true
  | WEternity => false
  | WFlag f => fval (get_flag o f)
  | WCmp v op z => cmp_eval op (tval (get_track o v)) z
  | WCmp2 v op v2 => cmp_eval op (tval (get_track o v)) (tval (get_track o v2))
  | WDone t => match assoc_nat t (tnames o) with Some t' => t_doneval (get_task o t') | None => false end
  | WAnd a b => sem o a && sem o b
  | WOr a b => sem o a || sem o b
  | WNot a => negb (sem o a)
  end.

(** [~] is defined on everything but moments and delays (NotImplementedError / TypeError in the library) *)
Fixpoint invertible (w : wt) : bool :=
  match w with
  | WDelay d => xeqb d (Fin 0)
  | WMoment _ => false
  | WAnd a b | WOr a b => invertible a && invertible b
  | WNot a => invertible a
  | _ => true
  end.
Definition is_cond (w : wt) : bool := match w with WDelay d => xeqb d (Fin 0) | _ => true end.
(** flags / tracked values exist; no delay below a connective; only invertible operands below [~] *)
Fixpoint wt_ok (o : objs) (w : wt) : bool :=
  match w with
  | WFlag f => Nat.ltb f (length (flags o))
  | WCmp v _ _ => Nat.ltb v (length (tracked o))
  | WCmp2 v _ v2 => Nat.ltb v (length (tracked o)) && Nat.ltb v2 (length (tracked o))
  | WAnd a b | WOr a b => wt_ok o a && wt_ok o b && (is_cond a && is_cond b)
  | WNot a => wt_ok o a && invertible a
  | _ => true
  end.
Definition well_formed_wt (o : objs) (w : wt) : Prop := wt_ok o w = true.

Lemma wt_ok_and o a b : wt_ok o (WAnd a b) = true -> wt_ok o a = true /\ wt_ok o b = true.
Proof. cbn. intros H. apply andb_true_iff in H. destruct H as [H _]. now apply andb_true_iff in H. Qed.
Lemma wt_ok_not o a : wt_ok o (WNot a) = true -> wt_ok o a = true.
Proof. cbn. intros H. now apply andb_true_iff in H. Qed.
Lemma sem_ext o o' w : ext o o' -> sem o' w = sem o w.
Proof.
  intros E. destruct (ext_env _ _ E) as (E1 & E2 & E3 & E4).
  induction w; cbn; rewrite ?E1, ?E2, ?E3, ?(ext_tnames _ _ E); auto; try congruence.
  destruct (assoc_nat t (tnames o)); auto.
Qed.
Lemma wt_ok_ext o o' w : ext o o' -> wt_ok o' w = wt_ok o w.
Proof. intros E. induction w; cbn; rewrite ?(ext_flags _ _ E), ?(ext_tlen _ _ E); congruence. Qed.

(** the conditions on which [invert_f] is defined *)
Definition inv_leaf (k : nkind) : bool :=
  match k with NPlain | NMoment _ _ | NDelay _ | NAll _ | NAny _ => false | _ => true end.
Inductive invable (o : objs) : nid -> Prop :=
| IvLeaf n : inv_leaf (kind_of o n) = true -> invable o n
| IvConn n : is_conn (kind_of o n) = true -> (forall c, In c (children (kind_of o n)) -> invable o c) -> invable o n.

Lemma invable_kind o n : invable o n -> inv_leaf (kind_of o n) || is_conn (kind_of o n) = true.
Proof. intros [m H|m H _]; rewrite H; auto using orb_true_r. Qed.
Lemma invable_range o n : invable o n -> n < length (notifs o).
Proof. intros H. apply invable_kind in H. apply kind_range. intros E. rewrite E in H. discriminate. Qed.
Lemma invable_conn o n b cs c : invable o n -> kind_of o n = conn b cs -> In c cs -> invable o c.
Proof.
  intros [m H|m _ Hc] K Hx.
  - rewrite K in H. destruct b; discriminate.
  - apply Hc. now rewrite K, children_conn.
Qed.
Lemma invable_ext o o' n : ext o o' -> invable o n -> invable o' n.
Proof.
  intros E H. induction H as [n L|n C Hc IH].
  - apply IvLeaf. rewrite (ext_kind _ _ _ E); auto. apply invable_range. now apply IvLeaf.
  - assert (K : kind_of o' n = kind_of o n) by (apply (ext_kind _ _ _ E), invable_range; now apply IvConn).
    apply IvConn; rewrite K; auto.
Qed.

(** what a constructor returns: a well-formed extension [o'] in which node [m] has value [v] and, if [c], is a
    condition that [~] accepts *)
Definition post (o o' : objs) (m : nid) (v c : bool) : Prop :=
  wf o' /\ ext o o' /\ m < length (notifs o') /\ cond_true o' m = v /\ (c = true -> invable o' m).

Lemma post_node o m k : wf o -> kind_of o m = k -> inv_leaf k = true -> post o o m (cond_step (cond_true o) o k) true.
Proof.
  intros W K C. split; [exact W|]. split; [apply ext_refl|].
  split; [apply kind_range; rewrite K; intros ->; discriminate|].
  split; [apply cond_true_kind; auto|]. intros _. apply IvLeaf. now rewrite K.
Qed.
Lemma post_alloc o0 o k o' m : wf o -> ext o0 o -> alloc_notif o k = (o', m) ->
  node_ok (fst (alloc_notif o k)) (length (notifs o)) k -> post o0 o' m (cond_step (cond_true o) o k) (inv_leaf k).
Proof.
  intros W E0 Eq N. apply alloc_notif_eq in Eq. destruct Eq as [-> ->].
  destruct (alloc_post o k W N) as (W' & E & L & K & T).
  split; [exact W'|]. split; [exact (ext_trans _ _ _ E0 E)|]. split; [exact L|]. split; [exact T|].
  intros C. apply IvLeaf. now rewrite K.
Qed.
Lemma post_alloc_conn o0 o b cs o' m c : wf o -> ext o0 o -> alloc_notif o (conn b cs) = (o', m) ->
  cs <> [] -> (forall x, In x cs -> x < length (notifs o)) -> (c = true -> forall x, In x cs -> invable o x) ->
  post o0 o' m (evalb b (cond_true o) cs) c.
Proof.
  intros W E0 Eq Ne Lt Iv. apply alloc_notif_eq in Eq. destruct Eq as [-> ->].
  destruct (alloc_post o (conn b cs) W) as (W' & E & L & K & T); [apply node_ok_conn; auto|].
  split; [exact W'|]. split; [exact (ext_trans _ _ _ E0 E)|]. split; [exact L|].
  split; [now rewrite T, cond_step_conn|].
  intros C. apply IvConn; rewrite K; [apply is_conn_conn|]. rewrite children_conn.
  intros x Hx. exact (invable_ext _ _ _ E (Iv C x Hx)).
Qed.
(** a comparison registers itself with its operands; registering first and allocating then gives the same state *)
Lemma post_alloc_cmp o v op z o' m : wf o -> v < length (tracked o) ->
  (let '(o1, n) := alloc_notif o (NCmp v op z) in (add_listener o1 v n, n)) = (o', m) ->
  post o o' m (cmp_eval op (tval (get_track o v)) z) true.
Proof.
  intros W Hv Eq. set (o1 := add_listener o v (length (notifs o))).
  change (alloc_notif o1 (NCmp v op z) = (o', m)) in Eq.
  pose proof (ext_add_listener o v (length (notifs o))) as E. rewrite <- (ext_tval _ _ E v).
  refine (post_alloc o o1 _ o' m (wf_add_listener _ _ _ W) E Eq _).
  split; [rewrite <- (ext_tlen _ _ E) in Hv; exact Hv | exact (in_add_listener o v _ Hv)].
Qed.
Lemma post_alloc_cmp2 o v op v2 o' m : wf o -> v < length (tracked o) -> v2 < length (tracked o) ->
  (let '(o1, n) := alloc_notif o (NCmp2 v op v2) in (add_listener (add_listener o1 v2 n) v n, n)) = (o', m) ->
  post o o' m (cmp_eval op (tval (get_track o v)) (tval (get_track o v2))) true.
Proof.
  intros W Hv Hv2 Eq. set (n := length (notifs o)) in *. set (o1 := add_listener o v2 n). set (o2 := add_listener o1 v n).
  change (alloc_notif o2 (NCmp2 v op v2) = (o', m)) in Eq.
  pose proof (ext_add_listener o v2 n) as E1. pose proof (ext_add_listener o1 v n) as E2. fold o1 in E1. fold o2 in E2.
  pose proof (ext_trans _ _ _ E1 E2) as E. rewrite <- (ext_tval _ _ E v), <- (ext_tval _ _ E v2).
  refine (post_alloc o o2 _ o' m (wf_add_listener _ _ _ (wf_add_listener _ _ _ W)) E Eq _).
  pose proof (in_add_listener o v2 n Hv2) as I2. rewrite <- (ext_tlen _ _ E1) in Hv.
  pose proof (in_add_listener o1 v n Hv) as I1. rewrite <- (ext_tlen _ _ E2) in Hv. rewrite <- (ext_tlen _ _ E) in Hv2.
  exact (conj Hv (conj Hv2 (conj I1 (ext_tlis _ _ E2 v2 n I2)))).
Qed.

Definition inv_post (o : objs) (n : nid) (o' : objs) (m : nid) : Prop := post o o' m (negb (cond_true o n)) true.

Definition inv_fold (fuel : nat) : objs * list nid -> nid -> objs * list nid :=
  fun '(o', acc) c => let '(o'', c') := invert_f fuel o' c in (o'', acc ++ [c']).

Lemma inv_all_spec fuel :
  (forall o n o' m, n < fuel -> wf o -> invable o n -> invert_f fuel o n = (o', m) -> inv_post o n o' m) ->
  forall cs oa acc o1 res, wf oa -> (forall c, In c cs -> c < fuel /\ invable oa c) ->
    fold_left (inv_fold fuel) cs (oa, acc) = (o1, res) ->
    wf o1 /\ ext oa o1 /\ exists cs', res = acc ++ cs' /\ length cs' = length cs /\
      (forall c', In c' cs' -> c' < length (notifs o1) /\ invable o1 c') /\
      forall b, evalb (negb b) (cond_true o1) cs' = negb (evalb b (cond_true oa) cs).
Proof.
  intros IHf. induction cs as [|c cs IH]; intros oa acc o1 res W Hcs Eq; cbn in Eq.
  - inversion Eq; subst. split; auto. split; [apply ext_refl|]. exists []. rewrite app_nil_r.
    repeat split; try contradiction. now intros [|].
  - destruct (invert_f fuel oa c) as [ob c'] eqn:Ei.
    destruct (Hcs c (or_introl eq_refl)) as [Hc Ic].
    destruct (IHf _ _ _ _ Hc W Ic Ei) as (Wb & Eb & Lb & Tb & Ib).
    destruct (IH ob (acc ++ [c']) o1 res Wb) as (W1 & E1 & cs' & R & Len & Rg & T); auto.
    { intros c2 H2. destruct (Hcs c2 (or_intror H2)). split; auto. eapply invable_ext; eauto. }
    split; auto. split; [eapply ext_trans; eauto|]. exists (c' :: cs'). rewrite R, <- app_assoc.
    split; auto. split; [cbn; lia|]. split.
    { intros x [<-|Hx]; auto. split; [pose proof (ext_len _ _ E1); lia | exact (invable_ext _ _ _ E1 (Ib eq_refl))]. }
    intros b. rewrite !evalb_cons, T, negb_opb. f_equal.
    + rewrite <- Tb. apply cond_true_ext; auto.
    + f_equal. apply evalb_ext_in. intros c2 H2. apply cond_true_ext; auto. apply invable_range, Hcs. now right.
Qed.

(** De Morgan: the inverse of a connective is the dual connective of the inverted operands *)
Lemma invert_conn fuel b o n cs o' m :
  (forall o n o' m, n < fuel -> wf o -> invable o n -> invert_f fuel o n = (o', m) -> inv_post o n o' m) ->
  n < S fuel -> wf o -> invable o n -> kind_of o n = conn b cs ->
  (let '(o1, cs') := fold_left (inv_fold fuel) cs (o, []) in alloc_notif o1 (conn (negb b) cs')) = (o', m) ->
  post o o' m (negb (evalb b (cond_true o) cs)) true.
Proof.
  intros IH Hn W Iv K Eq. destruct (wf_conn o n b cs W K) as [Ne Lt].
  destruct (fold_left _ cs (o, [])) as [o1 cs'] eqn:Ef.
  apply (inv_all_spec fuel IH) in Ef; auto.
  2:{ intros c Hc. split; [specialize (Lt c Hc); lia | exact (invable_conn o n b cs c Iv K Hc)]. }
  destruct Ef as (W1 & E1 & cs2 & -> & Len & Rg & T). cbn [app] in Eq. rewrite <- T.
  apply (post_alloc_conn o o1 (negb b) cs2 o' m true W1 E1 Eq).
  - destruct cs2, cs; cbn in Len; congruence.
  - intros c Hc. apply Rg, Hc.
  - intros _ c Hc. apply Rg, Hc.
Qed.

Lemma invert_spec : forall fuel o n o' m,
  n < fuel -> wf o -> invable o n -> invert_f fuel o n = (o', m) -> inv_post o n o' m.
Proof.
  induction fuel as [|fuel IH]; intros o n o' m Hn W Iv Eq; [lia|].
  cbn [invert_f] in Eq. assert (N := wf_node _ W n).
  unfold inv_post. rewrite (cond_true_eq o n (wf_graph _ W)).
  destruct (kind_of o n) eqn:K;
    try (apply invable_kind in Iv; rewrite K in Iv; discriminate); cbn [node_ok cond_step] in N |- *.
  - destruct (wf_flag _ W f N) as [_ B]. injection Eq as <- <-. exact (post_node o _ _ W B eq_refl).
  - destruct (wf_flag _ W f N) as [A _]. injection Eq as <- <-. rewrite negb_involutive. exact (post_node o _ _ W A eq_refl).
  - rewrite <- xltb_negb. exact (post_alloc o o _ o' m W (ext_refl o) Eq I).
  - rewrite <- xleb_negb. exact (post_alloc o o _ o' m W (ext_refl o) Eq I).
  - exact (post_alloc o o _ o' m W (ext_refl o) Eq I).
  - exact (post_alloc o o _ o' m W (ext_refl o) Eq I).
  - destruct N as [Hv _]. rewrite <- cmp_inverse_spec. exact (post_alloc_cmp o v _ rhs o' m W Hv Eq).
  - destruct N as (Hv & Hv2 & _). rewrite <- cmp_inverse_spec. exact (post_alloc_cmp2 o v _ v2 o' m W Hv Hv2 Eq).
  - destruct (wf_task _ W t N) as [_ B]. injection Eq as <- <-. exact (post_node o _ _ W B eq_refl).
  - destruct (wf_task _ W t N) as [A _]. injection Eq as <- <-. rewrite negb_involutive. exact (post_node o _ _ W A eq_refl).
  - exact (invert_conn fuel true o n cs o' m IH Hn W Iv K Eq).
  - exact (invert_conn fuel false o n cs o' m IH Hn W Iv K Eq).
Qed.

(** [a & b], [a | b] with the flattening of [Condition.__and__/__or__] *)
Definition conn_children (b : bool) : objs -> nid -> list nid := if b then conn_children_all else conn_children_any.
Lemma cc_spec b o n : wf o -> n < length (notifs o) ->
  (forall c, In c (conn_children b o n) -> c < length (notifs o)) /\ conn_children b o n <> [] /\
  evalb b (cond_true o) (conn_children b o n) = cond_true o n /\
  (invable o n -> forall c, In c (conn_children b o n) -> invable o c).
Proof.
  intros W L.
  assert (D : (exists cs, kind_of o n = conn b cs /\ conn_children b o n = cs) \/ conn_children b o n = [n])
    by (destruct b; cbn; [unfold conn_children_all | unfold conn_children_any]; destruct (kind_of o n); eauto).
  destruct D as [(cs & K & ->) | ->].
  - destruct (wf_conn o n b cs W K) as [Ne Lt].
    split; [intros c Hc; specialize (Lt c Hc); lia|]. split; [exact Ne|]. split.
    + now rewrite (cond_true_kind o n _ (wf_graph _ W) K), cond_step_conn.
    + intros Iv c. exact (invable_conn o n b cs c Iv K).
  - split; [intros c [<-|[]]; exact L|]. split; [discriminate|].
    split; [destruct b; cbn; [apply andb_true_r | apply orb_false_r]|]. intros Iv c [<-|[]]. exact Iv.
Qed.

Definition mk_post (o : objs) (w : wt) (o' : objs) (n : nid) : Prop := post o o' n (sem o w) (invertible w).

Lemma mk_conn_post b w1 w2 :
  (forall o o' n, wf o -> wt_ok o w1 = true -> mk_notif o w1 = (o', n) -> mk_post o w1 o' n) ->
  (forall o o' n, wf o -> wt_ok o w2 = true -> mk_notif o w2 = (o', n) -> mk_post o w2 o' n) ->
  forall o o' n, wf o -> wt_ok o w1 = true -> wt_ok o w2 = true ->
  (let '(o1, na) := mk_notif o w1 in let '(o2, nb) := mk_notif o1 w2 in
   alloc_notif o2 (conn b (conn_children b o2 na ++ conn_children b o2 nb))) = (o', n) ->
  post o o' n (opb b (sem o w1) (sem o w2)) (invertible w1 && invertible w2).
Proof.
  intros IH1 IH2 o o' n W OKa OKb Eq.
  destruct (mk_notif o w1) as [o1 na] eqn:Ea. destruct (mk_notif o1 w2) as [o2 nb] eqn:Eb.
  destruct (IH1 _ _ _ W OKa Ea) as (W1 & E1 & L1 & T1 & I1).
  rewrite <- (wt_ok_ext _ _ _ E1) in OKb. destruct (IH2 _ _ _ W1 OKb Eb) as (W2 & E2 & L2 & T2 & I2).
  assert (La : na < length (notifs o2)) by (pose proof (ext_len _ _ E2); lia).
  destruct (cc_spec b o2 na W2 La) as (Ra & Na & Ta & Ia). destruct (cc_spec b o2 nb W2 L2) as (Rb & Nb & Tb & Ib).
  assert (T : evalb b (cond_true o2) (conn_children b o2 na ++ conn_children b o2 nb) = opb b (sem o w1) (sem o w2)).
  { rewrite evalb_app, Ta, Tb, T2, (sem_ext _ _ _ E1), <- T1. f_equal. apply cond_true_ext; auto. }
  rewrite <- T. apply (post_alloc_conn o o2 b _ o' n _ W2 (ext_trans _ _ _ E1 E2) Eq).
  - intros H. apply app_eq_nil in H. tauto.
  - intros c Hc. apply in_app_or in Hc. destruct Hc; auto.
  - intros Hi c Hc. apply andb_true_iff in Hi. destruct Hi as [Hi1 Hi2]. apply in_app_or in Hc.
    destruct Hc; [apply Ia|apply Ib]; auto. apply (invable_ext _ _ _ E2); auto.
Qed.

Lemma mk_notif_spec w : forall o o' n, wf o -> wt_ok o w = true -> mk_notif o w = (o', n) -> mk_post o w o' n.
Proof.
  induction w; intros o o' n W OK Eq; cbn [mk_notif] in Eq; cbn [wt_ok] in OK; unfold mk_post; cbn [sem invertible].
  - destruct (xeqb d (Fin 0)); exact (post_alloc o o _ o' n W (ext_refl o) Eq I).
  - exact (post_alloc o o _ o' n W (ext_refl o) Eq I).
  - exact (post_alloc o o _ o' n W (ext_refl o) Eq I).
  - destruct (alloc_post o (NAfter t) W I) as (W1 & E1 & L1 & K1 & _).
    refine (post_alloc o _ (NMoment t (length (notifs o))) o' n W1 E1 Eq _).
    split; [exact L1 | rewrite (ext_kind _ _ _ (ext_alloc _ _) L1); exact K1].
  - exact (post_alloc o o _ o' n W (ext_refl o) Eq I).
  - exact (post_alloc o o _ o' n W (ext_refl o) Eq I).
  - apply Nat.ltb_lt in OK. destruct (wf_flag _ W f OK) as [A _]. injection Eq as <- <-. exact (post_node o _ _ W A eq_refl).
  - apply Nat.ltb_lt in OK. exact (post_alloc_cmp o v op z o' n W OK Eq).
  - apply andb_true_iff in OK. destruct OK as [Hv Hv2]. apply Nat.ltb_lt in Hv, Hv2.
    exact (post_alloc_cmp2 o v op v2 o' n W Hv Hv2 Eq).
  - destruct (assoc_nat t (tnames o)) as [t'|] eqn:A.
    + apply (wf_tnames _ W) in A. destruct (wf_task _ W t' A) as [B _]. injection Eq as <- <-.
      exact (post_node o _ _ W B eq_refl).
    + exact (post_alloc o o _ o' n W (ext_refl o) Eq I).
  - destruct (wt_ok_and o w1 w2 OK) as [OKa OKb]. exact (mk_conn_post true w1 w2 IHw1 IHw2 o o' n W OKa OKb Eq).
  - destruct (wt_ok_and o w1 w2 OK) as [OKa OKb]. exact (mk_conn_post false w1 w2 IHw1 IHw2 o o' n W OKa OKb Eq).
  - destruct (mk_notif o w) as [o1 na] eqn:Ea.
    apply andb_true_iff in OK. destruct OK as [OK Hi].
    destruct (IHw _ _ _ W OK Ea) as (W1 & E1 & L1 & T1 & I1).
    destruct (invert_spec _ _ _ _ _ (Nat.lt_lt_succ_r _ _ L1) W1 (I1 Hi) Eq) as (W' & E' & L' & T' & I').
    split; [exact W'|]. split; [eauto using ext_trans|]. split; [exact L'|]. split; [now rewrite T', T1|auto].
Qed.

(** C08, boolean algebra: the truth of a constructed expression *)
Definition truth (o : objs) (w : wt) : bool := let '(o', n) := mk_notif o w in cond_true o' n.

Theorem mk_notif_sem o w : wf o -> well_formed_wt o w -> let '(o', n) := mk_notif o w in cond_true o' n = sem o w.
Proof. intros W OK. destruct (mk_notif o w) as [o' n] eqn:E. destruct (mk_notif_spec w o o' n W OK E) as (_ & _ & _ & T & _). exact T. Qed.
Corollary truth_sem o w : wf o -> well_formed_wt o w -> truth o w = sem o w.
Proof. intros W OK. pose proof (mk_notif_sem o w W OK) as H. unfold truth. destruct (mk_notif o w). exact H. Qed.

Theorem mk_notif_wf o w : wf o -> well_formed_wt o w -> let '(o', n) := mk_notif o w in wf o' /\ ext o o' /\ n < length (notifs o').
Proof. intros W OK. destruct (mk_notif o w) as [o' n] eqn:E. destruct (mk_notif_spec w o o' n W OK E) as (A & B & C & _). auto. Qed.

(** constructing an expression only appends objects (and listeners): every existing object, including its
    waiting list, is untouched and every existing condition keeps its truth value *)
Theorem mk_notif_preserves o w : wf o -> well_formed_wt o w ->
  let '(o', _) := mk_notif o w in
  (exists l, notifs o' = notifs o ++ l) /\ forall m, m < length (notifs o) -> cond_true o' m = cond_true o m.
Proof.
  intros W OK. destruct (mk_notif o w) as [o' n] eqn:E. destruct (mk_notif_spec w o o' n W OK E) as (W' & E' & _).
  split; [apply E'|]. intros m Hm. apply cond_true_ext; auto.
Qed.

Theorem and_is_and o a b : wf o -> well_formed_wt o (WAnd a b) -> truth o (WAnd a b) = truth o a && truth o b.
Proof. intros W OK. destruct (wt_ok_and _ _ _ OK). rewrite !truth_sem; auto. Qed.
Theorem or_is_or o a b : wf o -> well_formed_wt o (WOr a b) -> truth o (WOr a b) = truth o a || truth o b.
Proof. intros W OK. destruct (wt_ok_and _ _ _ OK). rewrite !truth_sem; auto. Qed.
Theorem not_is_not o c : wf o -> well_formed_wt o (WNot c) -> truth o (WNot c) = negb (truth o c).
Proof. intros W OK. pose proof (wt_ok_not _ _ OK). rewrite !truth_sem; auto. Qed.
Theorem double_inversion o c : wf o -> well_formed_wt o (WNot (WNot c)) -> truth o (WNot (WNot c)) = truth o c.
Proof.
  intros W OK. pose proof (wt_ok_not _ _ OK) as OK1. pose proof (wt_ok_not _ _ OK1).
  rewrite !truth_sem; auto. cbn. apply negb_involutive.
Qed.
(** [wt_ok] of [~(a & b)] and of [~(a | b)] is the premise, [wt_ok] of [~a | ~b] and of [~a & ~b] the conclusion *)
Lemma wt_ok_demorgan o a b :
  wt_ok o a && wt_ok o b && (is_cond a && is_cond b) && (invertible a && invertible b) = true ->
  wt_ok o a && invertible a && (wt_ok o b && invertible b) && (true && true) = true.
Proof.
  intros H. apply andb_true_iff in H. destruct H as [H Hi]. apply andb_true_iff in H. destruct H as [H _].
  apply andb_true_iff in H, Hi. destruct H as [Ha Hb], Hi as [Ia Ib]. now rewrite Ha, Hb, Ia, Ib.
Qed.
Theorem de_morgan_and o a b : wf o -> well_formed_wt o (WNot (WAnd a b)) ->
  well_formed_wt o (WOr (WNot a) (WNot b)) /\ truth o (WNot (WAnd a b)) = truth o (WOr (WNot a) (WNot b)).
Proof.
  intros W OK. assert (OK' : well_formed_wt o (WOr (WNot a) (WNot b))) by exact (wt_ok_demorgan o a b OK).
  split; auto. rewrite !truth_sem; auto. cbn. apply negb_andb.
Qed.
Theorem de_morgan_or o a b : wf o -> well_formed_wt o (WNot (WOr a b)) ->
  well_formed_wt o (WAnd (WNot a) (WNot b)) /\ truth o (WNot (WOr a b)) = truth o (WAnd (WNot a) (WNot b)).
Proof.
  intros W OK. assert (OK' : well_formed_wt o (WAnd (WNot a) (WNot b))) by exact (wt_ok_demorgan o a b OK).
  split; auto. rewrite !truth_sem; auto. cbn. apply negb_orb.
Qed.

Lemma kind_alloc_flag o n :
  kind_of (fst (alloc_flag o)) n =
  if Nat.eqb n (S (length (notifs o))) then NInvFlag (length (flags o))
  else if Nat.eqb n (length (notifs o)) then NFlag (length (flags o)) else kind_of o n.
Proof.
  change (kind_of (fst (alloc_flag o)) n) with
    (kind_of (fst (alloc_notif (fst (alloc_notif o (NFlag (length (flags o))))) (NInvFlag (length (flags o))))) n).
  rewrite !kind_of_alloc, len_alloc. reflexivity.
Qed.
Lemma flags_alloc_flag o :
  flags (fst (alloc_flag o)) = flags o ++ [{| fval := false; fnid := length (notifs o); finv := S (length (notifs o)) |}].
Proof.
  change (flags (fst (alloc_flag o))) with (flags o ++ [{| fval := false; fnid := length (notifs o);
    finv := length (notifs (fst (alloc_notif o (NFlag (length (flags o)))))) |}]).
  now rewrite len_alloc.
Qed.
Lemma grows_alloc_flag o : grows o (fst (alloc_flag o)).
Proof.
  split; auto.
  - intros n Hn. rewrite kind_alloc_flag. destruct (Nat.eqb_spec n (S (length (notifs o)))); [lia|].
    destruct (Nat.eqb_spec n (length (notifs o))); [lia|reflexivity].
  - rewrite flags_alloc_flag, app_length. lia.
Qed.
Theorem wf_alloc_flag o : wf o -> wf (fst (alloc_flag o)).
Proof.
  intros W. pose proof (grows_alloc_flag o) as Gr. split.
  - intros n. rewrite kind_alloc_flag.
    destruct (Nat.eqb n (S (length (notifs o)))); [cbn [node_ok]; rewrite flags_alloc_flag, app_length; cbn; lia|].
    destruct (Nat.eqb n (length (notifs o))); [cbn [node_ok]; rewrite flags_alloc_flag, app_length; cbn; lia|].
    apply node_ok_grows with o; auto. apply W.
  - unfold get_flag. rewrite flags_alloc_flag, app_length. cbn [length].
    intros f Hf. destruct (Nat.eq_dec f (length (flags o))) as [->|Ne].
    + rewrite app_nth2, Nat.sub_diag by auto. cbn [nth fnid finv]. rewrite !kind_alloc_flag, !Nat.eqb_refl.
      destruct (Nat.eqb_spec (length (notifs o)) (S (length (notifs o)))); [lia|auto].
    + assert (Hf' : f < length (flags o)) by lia. rewrite app_nth1 by auto. destruct (wf_flag _ W f Hf') as [A B].
      split; apply (grows_kind o _ _ _ Gr); try discriminate; assumption.
  - intros t Ht. destruct (wf_task _ W t Ht) as [A B].
    split; apply (grows_kind o _ _ _ Gr); try discriminate; assumption.
  - exact (wf_tnames _ W).
Qed.

(** before the scenario's program runs there are plain objects and flags only, so [tracked] may be anything *)
Definition wf0 (o : objs) : Prop :=
  (forall n, match kind_of o n with NPlain => True | NFlag f | NInvFlag f => f < length (flags o) | _ => False end) /\
  (forall f, f < length (flags o) ->
             kind_of o (fnid (get_flag o f)) = NFlag f /\ kind_of o (finv (get_flag o f)) = NInvFlag f) /\
  tasks o = [] /\ tnames o = [].
Lemma wf0_wf o : wf0 o -> wf o.
Proof.
  intros (A & B & C & D). split; auto.
  - intros n. specialize (A n). destruct (kind_of o n); cbn; auto; contradiction.
  - rewrite C. cbn. intros; lia.
  - rewrite D. cbn. discriminate.
Qed.
Lemma kind_grow o o' l : notifs o' = notifs o ++ l -> Forall (fun x => nk x = NPlain) l -> forall n, kind_of o' n = kind_of o n.
Proof.
  intros N F n. unfold kind_of, get_notif. rewrite N. destruct (Nat.lt_ge_cases n (length (notifs o))).
  - now rewrite app_nth1.
  - rewrite app_nth2, (nth_overflow (notifs o)) by auto.
    destruct (nth_in_or_default (n - length (notifs o)) l dnotif) as [H0| ->]; [|reflexivity].
    exact (proj1 (Forall_forall _ l) F _ H0).
Qed.
Lemma wf0_grow o o' l : wf0 o -> notifs o' = notifs o ++ l -> Forall (fun x => nk x = NPlain) l ->
  flags o' = flags o -> tasks o' = tasks o -> tnames o' = tnames o -> wf0 o'.
Proof.
  intros (A & B & C & D) N F Fl T Tn. pose proof (kind_grow o o' l N F) as K. unfold wf0, get_flag.
  rewrite Fl, T, Tn. repeat split; auto.
  - intros n. rewrite K. apply A.
  - rewrite K. apply B, H.
  - rewrite K. apply B, H.
Qed.
Lemma wf0_empty start nroots : wf0 (empty_objs start nroots).
Proof.
  split; [|split; [|split; reflexivity]].
  - intros n. unfold kind_of, get_notif. cbn. destruct n; exact I.
  - cbn. intros; lia.
Qed.
Lemma wf0_alloc_flag o : wf0 o -> wf0 (fst (alloc_flag o)).
Proof.
  intros H. pose proof (wf_alloc_flag o (wf0_wf o H)) as W'. destruct H as (A & _ & C & D).
  split; [|split; [exact (wf_flag _ W') | split; assumption]].
  intros n. rewrite kind_alloc_flag, flags_alloc_flag, app_length. cbn [length].
  destruct (Nat.eqb n (S (length (notifs o)))); [lia|]. destruct (Nat.eqb n (length (notifs o))); [lia|].
  specialize (A n). destruct (kind_of o n); auto; lia.
Qed.
Lemma wf0_alloc_plain o : wf0 o -> wf0 (fst (alloc_notif o NPlain)).
Proof. intros H. apply (wf0_grow o _ [{| nk := NPlain; waiting := []; trig := false |}]); auto. Qed.
Lemma wf0_alloc_static_res rs i o : wf0 o -> wf0 (alloc_static_res rs i o).
Proof.
  intros H. apply wf0_grow with (o := o) (l := []); auto; [rewrite app_nil_r| | |]; apply alloc_static_res_proj; reflexivity.
Qed.
Theorem wf_init_objs s nroots : wf (init_objs s nroots).
Proof.
  apply wf0_wf. unfold init_objs. apply wf0_alloc_static_res.
  (* channels, queues (two objects each) and locks are plain objects; [wf0] reads [notifs], [flags], [tasks] and
     [tnames] only, so for a state that differs in other fields it is the same proposition by conversion *)
  apply iter_inv; [exact wf0_alloc_plain|].
  apply iter_inv; [exact (fun o H => wf0_alloc_plain _ (wf0_alloc_plain o H))|].
  apply iter_inv; [exact wf0_alloc_plain|].
  change (wf0 (iter (sc_nflags s) (fun o => fst (alloc_flag o)) (empty_objs (sc_start s) nroots))).
  apply iter_inv; [exact wf0_alloc_flag | apply wf0_empty].
Qed.

(** C08, never missed: the false-leaf subscription of connectives (fix D4a).  Soundness: only false leaves are
    subscribed to *)
Theorem pending_sound o : graph_wf o -> forall n c, In c (pending_children o n) ->
  cond_true o c = false /\ is_conn (kind_of o c) = false.
Proof.
  intros G n. induction n as [n IH] using (graph_ind o G). intros c. rewrite pending_eq by auto. unfold pend_step.
  destruct (is_conn (kind_of o n)); [|contradiction]. intros Hc. apply in_flat_map in Hc. destruct Hc as (x & Hx & Hc).
  unfold pend_child in Hc. destruct (cond_true o x) eqn:Fx; [contradiction|].
  destruct (is_conn (kind_of o x)) eqn:Cx.
  - apply (IH x); auto.
  - destruct Hc as [<-|[]]. auto.
Qed.

Lemma in_pending o n x c : graph_wf o -> is_conn (kind_of o n) = true -> In x (children (kind_of o n)) ->
  cond_true o x = false ->
  (if is_conn (kind_of o x) then In c (pending_children o x) else c = x) -> In c (pending_children o n).
Proof.
  intros G C Hx Fx Hc. rewrite pending_eq by auto. unfold pend_step. rewrite C. apply in_flat_map. exists x. split; auto.
  unfold pend_child. rewrite Fx. destruct (is_conn (kind_of o x)); auto. subst. now left.
Qed.

(** a property that descends from a false connective to one of its false operands is found at a pending leaf *)
Lemma pending_witness o (Q : nid -> Prop) : graph_wf o ->
  (forall n, is_conn (kind_of o n) = true -> cond_true o n = false -> Q n ->
     exists x, In x (children (kind_of o n)) /\ cond_true o x = false /\ Q x) ->
  forall n, is_conn (kind_of o n) = true -> cond_true o n = false -> Q n ->
  exists c, In c (pending_children o n) /\ cond_true o c = false /\ Q c.
Proof.
  intros G Down n. induction n as [n IH] using (graph_ind o G). intros C F q.
  destruct (Down n C F q) as (x & Hx & Fx & qx). destruct (is_conn (kind_of o x)) eqn:Cx.
  - destruct (IH x Hx Cx Fx qx) as (c & Hc & P). exists c. split; auto.
    apply (in_pending o n x c); auto. now rewrite Cx.
  - exists x. split; auto. apply (in_pending o n x x); auto. now rewrite Cx.
Qed.

(** completeness (the monotonicity argument): negations live in the leaves, so a connective is monotone in
    its leaves; if it is false now and true later (same objects), one of the leaves it was subscribed to
    has become true -- and a leaf that becomes true wakes its subscribers (lemmas below) *)
Theorem monotone_wake_complete o o' : graph_wf o -> same_graph o o' -> forall n,
  is_conn (kind_of o n) = true -> cond_true o n = false -> cond_true o' n = true ->
  exists c, In c (pending_children o n) /\ cond_true o c = false /\ cond_true o' c = true.
Proof.
  intros G S. assert (G' := same_graph_wf _ _ S G).
  apply (pending_witness o (fun n => cond_true o' n = true) G). intros n C F T.
  rewrite (cond_true_eq o n G) in F. rewrite (cond_true_eq o' n G'), S in T.
  destruct (kind_of o n) eqn:K; try discriminate C; cbn [children cond_step] in *.
  - destruct (forallb_false_ex _ _ F) as (x & Hx & Fx). exists x. rewrite forallb_forall in T. auto.
  - apply existsb_exists in T. destruct T as (x & Hx & Tx). exists x. split; auto. split; auto.
    apply (existsb_false_In _ _ _ F); auto.
Qed.

(** a false connective of a well-formed state is subscribed to at least one leaf *)
Theorem pending_nonempty o : wf o -> forall n,
  is_conn (kind_of o n) = true -> cond_true o n = false -> pending_children o n <> [].
Proof.
  intros W n C F. assert (G := wf_graph _ W).
  destruct (pending_witness o (fun _ => True) G) with (n := n) as (c & Hc & _); auto.
  2:{ intros P. rewrite P in Hc. exact Hc. }
  clear n C F. intros n C F _. assert (N := wf_node _ W n). rewrite (cond_true_eq o n G) in F.
  destruct (kind_of o n) eqn:K; try discriminate C; cbn [children cond_step node_ok] in *.
  - destruct (forallb_false_ex _ _ F) as (x & Hx & Fx). eauto.
  - destruct N as [Ne _]. destruct cs as [|x cs]; [congruence|]. exists x. split; [now left|]. split; auto.
    apply (existsb_false_In _ _ _ F). now left.
Qed.

Theorem pending_all_nil_iff o n cs : wf o -> kind_of o n = NAll cs ->
  (pending_children o n = [] <-> cond_true o n = true).
Proof.
  intros W K. assert (G := wf_graph _ W). split.
  - intros P. destruct (cond_true o n) eqn:F; auto. exfalso. apply (pending_nonempty o W n); auto. now rewrite K.
  - intros T. rewrite pending_eq, K by auto. apply flat_map_nil. intros x Hx.
    rewrite (cond_true_kind o n _ G K) in T. cbn [cond_step] in T. rewrite forallb_forall in T.
    unfold pend_child. now rewrite (T x Hx).
Qed.
(** without the non-emptiness invariant: a false connective with nothing pending can never become true *)
Corollary pending_nil_stuck o o' n : graph_wf o -> same_graph o o' -> is_conn (kind_of o n) = true ->
  cond_true o n = false -> pending_children o n = [] -> cond_true o' n = false.
Proof.
  intros G S C F P. destruct (cond_true o' n) eqn:T; auto.
  destruct (monotone_wake_complete o o' G S n C F T) as (c & Hc & _). rewrite P in Hc. contradiction.
Qed.

(** every leaf class wakes its whole waiting list when it becomes true *)
Definition wake_ops (l : list (aid * sid)) : list kop := map (fun '(a, s) => KNow a (Some s)) l.

Lemma get_set_notif o n x m :
  get_notif (set_notif o n x) m = if Nat.eqb m n && Nat.ltb n (length (notifs o)) then x else get_notif o m.
Proof. apply nth_list_upd. Qed.
Lemma set_notif_same_graph o n x : nk x = nk (get_notif o n) -> same_graph o (set_notif o n x).
Proof. intros H m. exact (nth_list_upd_proj nk (notifs o) m n x dnotif H). Qed.
Lemma set_notif_env o n x : env_same o (set_notif o n x).
Proof. repeat split. Qed.

Lemma get_plain_subscribe o n a w : n < length (notifs o) ->
  get_notif (plain_subscribe o n a w) n = get_notif o n <| waiting := waiting (get_notif o n) ++ [(a, w)] |>.
Proof. exact (nth_list_upd_eq (notifs o) n _ dnotif). Qed.

Lemma awake_all_spec o n o' ks : awake_all o n = (o', ks) ->
  ks = wake_ops (waiting (get_notif o n)) /\ waiting (get_notif o' n) = [] /\ same_graph o o' /\ env_same o o' /\
  (forall m, m <> n -> get_notif o' m = get_notif o m).
Proof.
  unfold awake_all. intros H. inversion H; subst. split; [reflexivity|]. split.
  - rewrite get_set_notif, Nat.eqb_refl. cbn [andb]. destruct (Nat.ltb_spec n (length (notifs o))); auto.
    now rewrite get_notif_oob.
  - split; [now apply set_notif_same_graph|]. split; [apply set_notif_env|]. intros m Hm. rewrite get_set_notif.
    apply Nat.eqb_neq in Hm. now rewrite Hm.
Qed.

(** an edge of a flag wakes every waiter of the side that has become true *)
Lemma flag_set_edge o f b o' ks : fval (get_flag o f) = negb b -> flag_set_sync o f b = (o', ks) ->
  let n := (if b then fnid else finv) (get_flag o f) in
  ks = wake_ops (waiting (get_notif o n)) /\ waiting (get_notif o' n) = [] /\ same_graph o o' /\
  (f < length (flags o) -> fval (get_flag o' f) = b).
Proof.
  intros F. unfold flag_set_sync. rewrite F. destruct b; cbn [andb negb]; intros H; apply awake_all_spec in H;
    destruct H as (A & B & C & (_ & D & _) & _); repeat split; auto; intros Hf; rewrite D;
    exact (f_equal fval (nth_list_upd_eq (flags o) f _ dflag Hf)).
Qed.
(** [Flag.set(True)] on a false flag *)
Theorem flag_set_rising o f o' ks : fval (get_flag o f) = false -> flag_set_sync o f true = (o', ks) ->
  let n := fnid (get_flag o f) in
  ks = wake_ops (waiting (get_notif o n)) /\ waiting (get_notif o' n) = [] /\ same_graph o o' /\
  (f < length (flags o) -> fval (get_flag o' f) = true).
Proof. exact (flag_set_edge o f true o' ks). Qed.
(** [Flag.set(False)] on a true flag: the waiters of [~flag] *)
Theorem flag_set_falling o f o' ks : fval (get_flag o f) = true -> flag_set_sync o f false = (o', ks) ->
  let n := finv (get_flag o f) in
  ks = wake_ops (waiting (get_notif o n)) /\ waiting (get_notif o' n) = [] /\ same_graph o o' /\
  (f < length (flags o) -> fval (get_flag o' f) = false).
Proof. exact (flag_set_edge o f false o' ks). Qed.
(** [Done.__set_done__] *)
Theorem set_done_wakes o t o' ks : set_done o t = (o', ks) ->
  let n := t_done (get_task o t) in
  ks = wake_ops (waiting (get_notif o n)) /\ waiting (get_notif o' n) = [] /\ same_graph o o' /\
  (t < length (tasks o) -> t_doneval (get_task o' t) = true).
Proof.
  unfold set_done. intros H. apply awake_all_spec in H.
  destruct H as (A & B & C & (_ & _ & _ & D) & _). repeat split; auto. intros Ht. rewrite D.
  exact (f_equal t_doneval (nth_list_upd_eq (tasks o) t _ dtask Ht)).
Qed.

(** [Tracked.set]: every registered comparison that is true for the new value wakes all its waiters *)
Definition tstep : objs * list kop -> nid -> objs * list kop :=
  fun '(o', ks) n => if cond_true o' n then let '(o'', ks') := awake_all o' n in (o'', ks ++ ks') else (o', ks).
Definition woken (o1 oc : objs) (ks : list kop) (m : nid) : Prop :=
  waiting (get_notif oc m) = [] /\ forall a w, In (a, w) (waiting (get_notif o1 m)) -> In (KNow a (Some w)) ks.
Definition tinv (o1 oc : objs) (ks : list kop) : Prop :=
  same_graph o1 oc /\ env_same o1 oc /\
  forall m, waiting (get_notif oc m) = waiting (get_notif o1 m) \/ woken o1 oc ks m.

Lemma tfold o1 : graph_wf o1 -> forall L oc ks o' ks', tinv o1 oc ks -> fold_left tstep L (oc, ks) = (o', ks') ->
  tinv o1 o' ks' /\ (forall m, woken o1 oc ks m -> woken o1 o' ks' m) /\
  forall m, In m L -> cond_true o1 m = true -> woken o1 o' ks' m.
Proof.
  intros G. induction L as [|n L IH]; intros oc ks o' ks' Inv Eq; cbn [fold_left] in Eq.
  - inversion Eq; subst. split; [exact Inv|]. split; [auto|]. intros m [].
  - destruct Inv as (S & E & Wt).
    assert (Tn : cond_true oc n = cond_true o1 n) by (apply cond_true_same; auto).
    unfold tstep at 2 in Eq. rewrite Tn in Eq. destruct (cond_true o1 n) eqn:T.
    + destruct (awake_all oc n) as [ob kb] eqn:Ea. destruct (awake_all_spec _ _ _ _ Ea) as (A & B & C & D & O).
      assert (Wn : woken o1 ob (ks ++ kb) n).
      { split; auto. intros a w H. apply in_or_app. destruct (Wt n) as [Q|[_ Q]]; [right|left; auto].
        subst kb. rewrite Q. exact (in_map (fun '(a, s) => KNow a (Some s)) _ (a, w) H). }
      assert (Mono : forall m, woken o1 oc ks m -> woken o1 ob (ks ++ kb) m).
      { intros m [Q1 Q2]. destruct (Nat.eq_dec m n) as [->|Ne]; auto. split; [now rewrite O|].
        intros a w H. apply in_or_app. left. auto. }
      assert (Inv' : tinv o1 ob (ks ++ kb)).
      { split; [intros m; now rewrite C|]. split; [eapply env_same_trans; eauto|]. intros m.
        destruct (Nat.eq_dec m n) as [->|Ne]; auto. destruct (Wt m) as [Q|Q]; auto. left. now rewrite O. }
      destruct (IH _ _ _ _ Inv' Eq) as (I1 & I2 & I3). split; auto. split; auto.
      intros m [<-|Hm] Tm; auto.
    + destruct (IH _ _ _ _ (conj S (conj E Wt)) Eq) as (I1 & I2 & I3). split; auto. split; auto.
      intros m [<-|Hm] Tm; [congruence|auto].
Qed.

Theorem tracked_set_wakes o v z o' ks : graph_wf o -> tracked_set_sync o v z = (o', ks) ->
  let o1 := o <| tracked := list_upd (tracked o) v ((get_track o v) <| tval := z |>) |> in
  same_graph o o' /\ env_same o1 o' /\
  forall n, In n (tlisteners (get_track o v)) -> cond_true o' n = true ->
    waiting (get_notif o' n) = [] /\ forall a w, In (a, w) (waiting (get_notif o n)) -> In (KNow a (Some w)) ks.
Proof.
  intros G H o1. unfold tracked_set_sync in H. fold o1 in H.
  assert (G1 : graph_wf o1) by exact G.
  assert (I0 : tinv o1 o1 []) by (repeat split; auto).
  destruct (tfold o1 G1 _ _ _ _ _ I0 H) as ((S & E & _) & _ & Wk). split; [exact S|]. split; [exact E|].
  intros n Hn T. apply (Wk n Hn). rewrite <- T. symmetry. apply cond_true_same; auto.
Qed.

(** [After]: subscribing to a date that has not come arms the one-shot trigger activity (fix D3), which
    runs [awake_all] on the condition when it executes (at the date: kernel theorem C01) *)
Theorem subscribe_after_false o n d a w : graph_wf o -> n < length (notifs o) -> kind_of o n = NAfter d ->
  cond_true o n = false ->
  exists o' ks sp, subscribe_pres o n a w = mkpres o' ks sp (inl VU) /\
    In (a, w) (waiting (get_notif o' n)) /\ trig (get_notif o' n) = true /\
    (trig (get_notif o n) = false ->
     In (KAt d (length (astat o)) None) ks /\ In (length (astat o), trigger_prog n) sp).
Proof.
  intros G L K F. unfold subscribe_pres. change (nk (get_notif o n)) with (kind_of o n). rewrite K, F.
  unfold ensure_trigger. destruct (trig (get_notif o n)) eqn:Tr.
  - cbn. unfold cond_subscribe. rewrite F. cbn. eexists _, _, _. split; [reflexivity|].
    rewrite (get_plain_subscribe o n a w L). cbn. split; [apply in_elt|].
    split; [exact Tr | discriminate].
  - assert (Lt : xltb (onow o) d = true).
    { rewrite (cond_true_kind o n _ G K) in F. now apply xleb_false_xltb. }
    rewrite Lt. set (x := get_notif o n <| trig := true |>). set (o1 := set_notif o n x).
    assert (F1 : cond_true o1 n = false).
    { rewrite <- F. apply cond_true_same; auto; [apply set_notif_same_graph; reflexivity | apply set_notif_env]. }
    assert (L1 : n < length (notifs o1)) by (unfold o1, set_notif; cbn; now rewrite length_list_upd).
    assert (X : get_notif o1 n = x) by exact (nth_list_upd_eq _ n x dnotif L).
    unfold cond_subscribe. rewrite F1. cbn. eexists _, _, _. split; [reflexivity|].
    rewrite (get_plain_subscribe o1 n a w L1), X. cbn. split; [apply in_elt|].
    split; [reflexivity|]. intros _. split; now left.
Qed.

(** C08: subscribing to a true condition delivers immediately, nobody is parked on a true condition *)
Theorem subscribe_true_immediate o n a w : wf o -> cond_true o n = true ->
  subscribe_pres o n a w = okk o [KMark w; KNow a (Some w)].
Proof.
  intros W T. assert (G := wf_graph _ W). pose proof T as T0. rewrite (cond_true_eq o n G) in T0.
  assert (N := wf_node _ W n). unfold subscribe_pres. change (nk (get_notif o n)) with (kind_of o n).
  destruct (kind_of o n) eqn:K; try discriminate T0; try (unfold cond_subscribe; rewrite T; reflexivity).
  destruct N as [_ Ka]. apply xeqb_eq in T0.
  assert (Ta : cond_true o after = true).
  { rewrite (cond_true_kind o after _ G Ka). cbn [cond_step]. rewrite T0. apply xle_refl. }
  rewrite T0. destruct (xltb d d) eqn:X; [exfalso; exact (xlt_irrefl d X)|].
  rewrite Ta. unfold cond_subscribe. rewrite Ta. reflexivity.
Qed.
Corollary never_parked_on_true o n a w o' ks sp r : wf o -> cond_true o n = true ->
  subscribe_pres o n a w = mkpres o' ks sp r -> o' = o /\ In (KNow a (Some w)) ks /\ r = inl VU.
Proof. intros W T H. rewrite (subscribe_true_immediate o n a w W T) in H. inversion H; subst. cbn. auto. Qed.
(** and a condition-class subscription parks exactly when the condition is false *)
Theorem cond_subscribe_spec o n a w :
  cond_subscribe o n a w = if cond_true o n then okk o [KMark w; KNow a (Some w)] else oku (plain_subscribe o n a w).
Proof. reflexivity. Qed.

(** [wf] is kept by the value setters and the waiting-list operations: they change no kind, index or listener *)
Record shape_same (o o' : objs) : Prop := mk_shape {
  sh_graph : same_graph o o';
  sh_flen : length (flags o') = length (flags o);
  sh_flag : forall f, fnid (get_flag o' f) = fnid (get_flag o f) /\ finv (get_flag o' f) = finv (get_flag o f);
  sh_tlen : length (tasks o') = length (tasks o);
  sh_task : forall t, t_done (get_task o' t) = t_done (get_task o t) /\ t_notdone (get_task o' t) = t_notdone (get_task o t);
  sh_tnames : tnames o' = tnames o;
  sh_trlen : length (tracked o') = length (tracked o);
  sh_lis : forall v, tlisteners (get_track o' v) = tlisteners (get_track o v) }.
Lemma shape_grows o o' : shape_same o o' -> grows o o'.
Proof.
  intros [S Fl _ Tl _ _ Trl Li]. split; [intros n _; apply S | now rewrite Fl | now rewrite Tl | now rewrite Trl |].
  intros v x. now rewrite Li.
Qed.
Lemma wf_shape o o' : wf o -> shape_same o o' -> wf o'.
Proof.
  intros W Sh. pose proof (shape_grows _ _ Sh) as Gr. destruct Sh as [S Fl Ff Tl Tt Tn Trl Li]. split.
  - intros n. rewrite S. apply (node_ok_grows o _ _ _ Gr), W.
  - intros f. rewrite Fl. intros Hf. destruct (Ff f) as [-> ->]. rewrite !S. apply W, Hf.
  - intros t. rewrite Tl. intros Ht. destruct (Tt t) as [-> ->]. rewrite !S. apply W, Ht.
  - rewrite Tn, Tl. apply W.
Qed.
Lemma shape_trans a b c : shape_same a b -> shape_same b c -> shape_same a c.
Proof.
  intros [S Fl Ff Tl Tt Tn Trl Li] [S' Fl' Ff' Tl' Tt' Tn' Trl' Li']. split.
  - intros n. now rewrite S', S.
  - congruence.
  - intros f. destruct (Ff f), (Ff' f). split; congruence.
  - congruence.
  - intros t. destruct (Tt t), (Tt' t). split; congruence.
  - congruence.
  - congruence.
  - intros v. now rewrite Li', Li.
Qed.
Lemma shape_set_notif o n x : nk x = nk (get_notif o n) -> shape_same o (set_notif o n x).
Proof. intros H. split; auto; try reflexivity. now apply set_notif_same_graph. Qed.
Lemma shape_set_fval o f b : shape_same o (o <| flags := list_upd (flags o) f ((get_flag o f) <| fval := b |>) |>).
Proof.
  split; auto; try (intros n; reflexivity).
  - exact (length_list_upd _ _ _).
  - intros f'. split; apply (nth_list_upd_proj _ (flags o)); reflexivity.
Qed.
Lemma shape_set_tval o v z : shape_same o (o <| tracked := list_upd (tracked o) v ((get_track o v) <| tval := z |>) |>).
Proof.
  split; auto; try (intros n; reflexivity).
  - exact (length_list_upd _ _ _).
  - intros v'. apply (nth_list_upd_proj _ (tracked o)); reflexivity.
Qed.
Lemma shape_set_doneval o t b : shape_same o (set_task o t ((get_task o t) <| t_doneval := b |>)).
Proof.
  split; auto; try (intros n; reflexivity).
  - exact (length_list_upd _ _ _).
  - intros t'. split; apply (nth_list_upd_proj _ (tasks o)); reflexivity.
Qed.
Lemma wf_awake_all o n : wf o -> wf (fst (awake_all o n)).
Proof. intros W. apply (wf_shape o _ W), shape_set_notif. reflexivity. Qed.
Lemma wf_plain_subscribe o n a w : wf o -> wf (plain_subscribe o n a w).
Proof. intros W. apply (wf_shape o _ W), shape_set_notif. reflexivity. Qed.
Theorem wf_flag_set o f b : wf o -> wf (fst (flag_set_sync o f b)).
Proof.
  intros W. unfold flag_set_sync. destruct (b && negb (fval (get_flag o f))); [|destruct (fval (get_flag o f) && negb b); auto];
    apply wf_awake_all, (wf_shape o _ W), shape_set_fval.
Qed.
Theorem wf_set_done o t : wf o -> wf (fst (set_done o t)).
Proof. intros W. unfold set_done. apply wf_awake_all, (wf_shape o _ W), shape_set_doneval. Qed.
Theorem wf_tracked_set o v z : wf o -> wf (fst (tracked_set_sync o v z)).
Proof.
  intros W. unfold tracked_set_sync. apply (fold_left_inv tstep (fun s => wf (fst s))).
  - intros [oc ks] n Wc. unfold tstep. destruct (cond_true oc n); auto.
    pose proof (wf_awake_all oc n Wc) as Wb. destruct (awake_all oc n). exact Wb.
  - exact (wf_shape o _ W (shape_set_tval o v z)).
Qed.

(** a family of concrete well-formed states for the non-vacuity examples of props/C08.v *)
Definition ex_state (nflags : nat) (tr : list Z) : objs :=
  (iter nflags (fun o => fst (alloc_flag o)) (empty_objs (Fin 0) 1))
    <| tracked := map (fun z => {| tval := z; tlisteners := [] |}) tr |>.
Lemma wf_ex_state nflags tr : wf (ex_state nflags tr).
Proof.
  apply wf0_wf. change (wf0 (iter nflags (fun o => fst (alloc_flag o)) (empty_objs (Fin 0) 1))).
  apply iter_inv; [exact wf0_alloc_flag | apply wf0_empty].
Qed.
