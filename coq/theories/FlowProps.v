(** C16: the count check of [Lib.first_gen], the transcription of first() in usim/_concurrent/basics.py, and what a
    FIFO queue read [count] times delivers. *)
From Coq Require Import ZArith List.
From Usim Require Import Machine Lib.

(** [first(..., count=k)] raises ValueError exactly when k exceeds the number of activities, before any scope, task or
    queue is created *)
Lemma first_count_exceeds scname k acts :
  length acts < k -> first_gen scname (Some k) acts = Raise EValueError.
Proof. intros H. unfold first_gen. apply Nat.ltb_lt in H. rewrite H. reflexivity. Qed.

Lemma first_count_ok scname k acts :
  k <= length acts -> first_gen scname (Some k) acts <> Raise EValueError.
Proof.
  intros H. unfold first_gen. assert (E : Nat.ltb (length acts) k = false) by (apply Nat.ltb_ge; exact H).
  rewrite E. discriminate.
Qed.

Lemma first_count_none scname acts : first_gen scname None acts <> Raise EValueError.
Proof. unfold first_gen. rewrite Nat.ltb_irrefl. discriminate. Qed.

(** what [first] yields, given the order in which results arrive in its queue, which it reads [count] times
    ([Queue] delivers in put order, exactly once: C10): the first [count] results in completion order, ties broken
    by the order in which the monitor tasks put them *)
Definition first_results (count : nat) (arrivals : list Z) : list Z := firstn count arrivals.

Lemma first_results_length count arrivals :
  length (first_results count arrivals) = Nat.min count (length arrivals).
Proof. apply firstn_length. Qed.

Lemma first_results_prefix count arrivals :
  exists rest, arrivals = first_results count arrivals ++ rest.
Proof. exists (skipn count arrivals). symmetry. apply firstn_skipn. Qed.

Lemma first_results_all arrivals : first_results (length arrivals) arrivals = arrivals.
Proof. apply firstn_all. Qed.
