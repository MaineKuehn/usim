(** Machine-level specifications of the two suspension primitives, by symbolic execution of their
    transcriptions for an ARBITRARY machine state, activity and continuation:
    [postpone()] requests exactly one wake-up of the running activity for the current time step, hibernates,
    and afterwards continues normally iff resumed by that wake-up; it always revokes the wake-up.
    [suspend(delay=d)] does the same with a wake-up [d] later.  Together with the kernel theorems
    (every activation executes at exactly its due time; whoever was queued before runs first) this is the
    machine-level content of C01 ("a delay resumes at exactly clock + d") and C20 ("postponing lets every
    other runnable activity run"). *)
From Coq Require Import List Bool PeanoNat.
From RecordUpdate Require Import RecordSet.
From Usim Require Import XTime Tables Kernel Machine Lib.
Import ListNotations.
Import RecordSetNotations.

Lemma exec_step n cur m md c outer m' md' c' outer' :
  step1 cur m md c outer = SCont m' md' c' outer' ->
  exec (S n) cur m md c outer = exec n cur m' md' c' outer'.
Proof. intros H. cbn [exec]. rewrite H. reflexivity. Qed.

Lemma exec_done n cur m md c outer m' :
  step1 cur m md c outer = SDone m' -> exec (S n) cur m md c outer = m'.
Proof. intros H. cbn [exec]. rewrite H. reflexivity. Qed.

(** one step of [exec] whose outcome [step1] computes without looking at the state *)
Ltac xstep := erewrite exec_step; [| cbn; reflexivity ].

(** after a primitive that returned [o'] and [ops]: [step1], case [Prim], applies the requests to the kernel of the
    state in which the primitive started, and logs them *)
Definition after_prim (m : mstate) (o' : objs) (ops : list kop) : mstate :=
  m <| ob := set_kern o' (kapply_all (kern (ob m)) ops) |> <| klog := klog m ++ ops |>.

Lemma step1_prim cur m f k o' ops v c outer :
  f (ob m) cur = mkpres o' ops [] (inl v) ->
  step1 cur m (MRun (Prim f k)) c outer = SCont (after_prim m o' ops) (MRun (k v)) c outer.
Proof. intros H. cbn. rewrite H. reflexivity. Qed.

Lemma set_kern_same o : set_kern o (kern o) = o.
Proof. destruct o; reflexivity. Qed.

Lemma after_prim_quiet m o' : kern o' = kern (ob m) -> after_prim m o' [] = m <| ob := o' |>.
Proof.
  intros E. unfold after_prim. cbn [kapply_all fold_left]. rewrite <- E, set_kern_same, app_nil_r.
  destruct m; reflexivity.
Qed.

Lemma after_prim_same m : after_prim m (ob m) [] = m.
Proof. rewrite after_prim_quiet by reflexivity. destruct m; reflexivity. Qed.

Lemma step1_prim_err cur m f k e c outer :
  f (ob m) cur = err (ob m) e ->
  step1 cur m (MRun (Prim f k)) c outer = SCont m (MThrow e) c outer.
Proof. intros H. rewrite <- (after_prim_same m) at 2. cbn. rewrite H. reflexivity. Qed.

Lemma exec_do k cur m f o' ops v c outer :
  f (ob m) cur = mkpres o' ops [] (inl v) ->
  exec (2 + k) cur m (MRun (Do f)) c outer = exec k cur (after_prim m o' ops) (MRet v) c outer.
Proof. intros H. cbn [Nat.add]. unfold Do. erewrite exec_step by (apply step1_prim; exact H). xstep. reflexivity. Qed.

Definition issue (m : mstate) (ops : list kop) : mstate :=
  m <| ob := set_kern (ob m) (kapply_all (kern (ob m)) ops) |> <| klog := klog m ++ ops |>.

(** ** [try: body  except w: pass  finally: fin], the shape of every wait

    [postpone], [suspend] and [Notification.__subscription__] all run their body under
    [Finally (Catch body (fun e => if is_sig e w then Ret VU else Raise e)) fin]: the wake-up [w] ends the
    body normally, anything else propagates, and [fin] (revoke / unsubscribe) runs either way.  While the
    body runs these three frames are on the stack. *)
Definition guard_frames (w : sid) (fin : prog) : list frame :=
  [ FCatch (fun e => if is_sig e w then Ret VU else Raise e);
    FCatch (fun e => fin ;;; Raise e);
    FBind (fun v => fin ;;; Ret v) ].

Lemma guard_own k cur m w f o' ops v c st outer :
  f (ob m) cur = mkpres o' ops [] (inl v) ->
  exec (9 + k) cur m (MThrow (ESig w)) {| c_aid := c; c_stack := guard_frames w (Do f) ++ st |} outer
  = exec k cur (after_prim m o' ops) (MRet VU) {| c_aid := c; c_stack := st |} outer.
Proof.
  intros Hf. change (9 + k) with (S (S (S (S (S (2 + (2 + k))))))). cbn [guard_frames app].
  xstep. cbn [is_sig]. rewrite Nat.eqb_refl.
  do 4 xstep. rewrite (exec_do _ _ _ _ _ _ _ _ _ Hf). cbn [Nat.add]. do 2 xstep. reflexivity.
Qed.

Lemma guard_foreign k cur m w e f o' ops v c st outer :
  is_sig e w = false -> f (ob m) cur = mkpres o' ops [] (inl v) ->
  exec (9 + k) cur m (MThrow e) {| c_aid := c; c_stack := guard_frames w (Do f) ++ st |} outer
  = exec k cur (after_prim m o' ops) (MThrow e) {| c_aid := c; c_stack := st |} outer.
Proof.
  intros He Hf. change (9 + k) with (S (S (S (S (2 + (3 + k)))))). cbn [guard_frames app].
  xstep. rewrite He.
  do 3 xstep. rewrite (exec_do _ _ _ _ _ _ _ _ _ Hf). cbn [Nat.add]. do 3 xstep. reflexivity.
Qed.

(** [outer = []]: the activity is not being closed *)
Lemma guarded_hib_sleeps k a m w fin st :
  exec (4 + k) a m (MRun (Finally (Catch Hib (fun e => if is_sig e w then Ret VU else Raise e)) fin))
       {| c_aid := a; c_stack := st |} []
  = set_act m a (ASusp (guard_frames w fin ++ st)).
Proof. cbn [Nat.add]. unfold Finally. do 3 xstep. apply exec_done. reflexivity. Qed.

(** what is left on the stack of an activity sleeping in [postpone()]/[suspend()] with wake-up [w] *)
Definition sleep_frames (w : sid) : list frame :=
  [ FCatch (fun e => if is_sig e w then Ret VU else Raise e);
    FCatch (fun e => Kop (fun _ _ => [KRevoke w]) ;;; Raise e);
    FBind (fun v => Kop (fun _ _ => [KRevoke w]) ;;; Ret v) ].

Lemma wake_own k a m w st outer :
  exec (9 + k) a m (MThrow (ESig w)) {| c_aid := a; c_stack := sleep_frames w ++ st |} outer
  = exec k a (issue m [KRevoke w]) (MRet VU) {| c_aid := a; c_stack := st |} outer.
Proof. exact (guard_own k a m w _ _ _ VU a st outer eq_refl). Qed.

Lemma wake_foreign k a m w e st outer :
  is_sig e w = false ->
  exec (9 + k) a m (MThrow e) {| c_aid := a; c_stack := sleep_frames w ++ st |} outer
  = exec k a (issue m [KRevoke w]) (MThrow e) {| c_aid := a; c_stack := st |} outer.
Proof. intros He. exact (guard_foreign k a m w e _ _ _ VU a st outer He eq_refl). Qed.

Definition asleep (m : mstate) (a : aid) (ops : list kop) (st : list frame) : mstate :=
  set_act (issue (m <| ob := (ob m) <| sigs := sigs (ob m) ++ [SKWake] |> |>) ops) a
          (ASusp (sleep_frames (length (sigs (ob m))) ++ st)).

Lemma new_sig_runs n cur m kd k c st outer :
  exec (4 + n) cur m (MRun (Bind (new_sig kd) k)) {| c_aid := c; c_stack := st |} outer
  = exec n cur (m <| ob := (ob m) <| sigs := sigs (ob m) ++ [kd] |> |>) (MRun (k (VN (length (sigs (ob m))))))
         {| c_aid := c; c_stack := st |} outer.
Proof.
  cbn [Nat.add]. xstep. change (S (S (S n))) with (2 + S n). unfold new_sig. erewrite exec_do by reflexivity.
  xstep. rewrite after_prim_quiet by reflexivity. reflexivity.
Qed.

(** [postpone()] and [suspend()]: allocate the wake-up, request it with [ops], hibernate under the guard *)
Lemma sleep_with k a m st (req : sid -> primfn) ops :
  (let w := length (sigs (ob m)) in
   req w ((ob m) <| sigs := sigs (ob m) ++ [SKWake] |>) a = okk ((ob m) <| sigs := sigs (ob m) ++ [SKWake] |>) ops) ->
  exec (12 + k) a m
       (MRun (w <- new_sig SKWake ;; let w := vnat w in
              Do (req w) ;;;
              Finally (Catch Hib (fun e => if is_sig e w then Ret VU else Raise e)) (Kop (fun _ _ => [KRevoke w]))))
       {| c_aid := a; c_stack := st |} []
  = asleep m a ops st.
Proof.
  intros Hr. change (12 + k) with (4 + S (2 + S (4 + k))). rewrite new_sig_runs. cbv zeta. cbn [vnat].
  xstep. rewrite (exec_do _ _ _ _ _ _ _ _ _ Hr). xstep. apply guarded_hib_sleeps.
Qed.

Theorem postpone_sleeps k a m st :
  exec (12 + k) a m (MRun postpone) {| c_aid := a; c_stack := st |} []
  = asleep m a [KNow a (Some (length (sigs (ob m))))] st.
Proof. exact (sleep_with k a m st (fun w _ a => okk _ [KNow a (Some w)]) _ eq_refl). Qed.

Theorem suspend_delay_sleeps k a m st d :
  xpos d && xltb (onow (ob m)) (xadd (onow (ob m)) d) = true ->
  exec (12 + k) a m (MRun (suspend_delay d)) {| c_aid := a; c_stack := st |} []
  = asleep m a [KAfter d a (Some (length (sigs (ob m))))] st.
Proof.
  intros Hd.
  apply (sleep_with k a m st (fun w o a => if xpos d && xltb (onow o) (xadd (onow o) d)
                                           then okk o [KAfter d a (Some w)] else err o EAssertion)).
  cbv zeta. change (onow ((ob m) <| sigs := sigs (ob m) ++ [SKWake] |>)) with (onow (ob m)).
  rewrite Hd. reflexivity.
Qed.

(** ** [while not cond: wait] leaves the loop only in a state where the condition holds

    [While c body] (Lib.v) re-evaluates [c] on the CURRENT state before every iteration; when it is false the loop
    is left at once, in the same activation and without any change of state.  So the statement following
    `await condition` ([cond_await]: `while not self: wait`) executes in a state in which the condition is true:
    the machine-level "resume implies true" of C08. *)
Definition while_head (c : objs -> bool) (body : prog) : val -> prog :=
  fun _ => Dyn (fun o _ => if c o then body ;;; Ret (VCont VU) else Ret (VBreak VU)).

(** the only exit: from the head, in a state where the guard is false *)
Theorem while_exit_only_when_false k a m c body st outer :
  exec (4 + k) a m (MRun (While c body)) {| c_aid := a; c_stack := st |} outer
  = if c (ob m)
    then exec (1 + k) a m (MRun body)
              {| c_aid := a; c_stack := FBind (fun _ => Ret (VCont VU)) :: FLoop (while_head c body) :: st |} outer
    else exec k a m (MRet VU) {| c_aid := a; c_stack := st |} outer.
Proof.
  cbn [Nat.add]. unfold While. fold (while_head c body). xstep.
  erewrite exec_step by (cbn; reflexivity). destruct (c (ob m)); [xstep | do 2 xstep]; reflexivity.
Qed.
