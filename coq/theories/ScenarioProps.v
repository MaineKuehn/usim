(** The initial state of a scenario program, and the kernel theorems for its executions. *)
From Coq Require Import List Sorted.
From RecordUpdate Require Import RecordSet.
From Usim Require Import XTime Kernel KernelProps Machine MachineProps Lib Scenario.
Import RecordSetNotations.

Lemma iter_inv {A} (P : A -> Prop) f : (forall x, P x -> P (f x)) -> forall n x, P x -> P (iter n f x).
Proof. intros H. induction n; cbn; auto. Qed.
Lemma iter_proj {A B} (p : A -> B) f : (forall x, p (f x) = p x) -> forall n x, p (iter n f x) = p x.
Proof. intros H n x. apply (iter_inv (fun y => p y = p x)); [intros y <-; apply H | reflexivity]. Qed.

(** [alloc_static_res] writes [tracked], [ress] and [snames] only *)
Lemma alloc_static_res_proj {A} (p : objs -> A) :
  (forall o x, p (o <| tracked := x |>) = p o) -> (forall o x, p (o <| ress := x |>) = p o) ->
  (forall o x, p (o <| snames := x |>) = p o) -> forall rs i o, p (alloc_static_res rs i o) = p o.
Proof.
  intros Ht Hr Hs. assert (Hc : forall o z, p (fst (alloc_cell o z)) = p o) by (intros; apply Ht).
  induction rs as [|[cap c] r IH]; intros i o; [reflexivity|].
  (* the cells are kept as variables: unfolding [alloc_cell] would copy the state into every later field *)
  cbn [alloc_static_res]. rewrite <- (Hc o c). destruct (alloc_cell o c) as [o1 t]. cbn [fst]. cbv zeta.
  rewrite IH. destruct cap.
  - destruct (alloc_cell _ c) as [o2 t2] eqn:E2. rewrite Hs, Hr. injection E2 as <- _. now rewrite Ht, Hr.
  - now rewrite Hs, Hr.
Qed.

Lemma init_objs_kern s n : kern (init_objs s n) = loop_init n (sc_start s).
Proof.
  unfold init_objs. rewrite (alloc_static_res_proj kern), !(iter_proj kern) by reflexivity.
  apply (iter_proj kern (fun o => fst (alloc_flag o))). reflexivity.
Qed.

Lemma kern_init_state s : exists n, kern_of (init_state s) = loop_init n (sc_start s).
Proof. unfold init_state, kern_of. case (sc_till s); eexists; apply init_objs_kern. Qed.

Lemma init_state_inv s : inv (kern_of (init_state s)).
Proof. destruct (kern_init_state s) as [n ->]. apply loop_init_inv. Qed.

(** C01/C02 for every scenario program, every step count: the activations execute in strictly increasing
    (due time, schedule order); each at exactly its due time; the clock never decreases *)
Theorem scenario_exec_sorted s fuel n : StronglySorted ev_lt (mtrace n fuel (init_state s)).
Proof. apply machine_exec_sorted. apply init_state_inv. Qed.

Theorem scenario_exec_at_due s fuel n :
  Forall (fun e => e_time e = a_due (e_act e) /\ xle (sc_start s) (e_time e)) (mtrace n fuel (init_state s)).
Proof.
  assert (H := machine_exec_at_due fuel n (init_state s) (init_state_inv s)).
  eapply Forall_impl; [|exact H]. cbn. intros e [H1 H2]. split; auto.
  destruct (kern_init_state s) as [k K]. rewrite K in H2. exact H2.
Qed.

Theorem scenario_time_monotone s fuel n :
  StronglySorted (fun x y => xle (e_time x) (e_time y)) (mtrace n fuel (init_state s)).
Proof. apply machine_time_monotone. apply init_state_inv. Qed.
