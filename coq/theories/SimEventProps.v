(** C18 - proofs about the event protocol of SimEvent.v (for all operation histories) and
    the lemmas that tie the machine to it.

    Every operation changes the protocol state by a few primitive moves ([move]: schedule an activation,
    update one event / interrupt queue / flag, log, run the callbacks of an event, take the head of the
    agenda ...).  [exec_op_moves] decomposes each operation once; every invariant is then checked on the moves. *)
From Coq Require Import List ZArith Bool Lia.
Import ListNotations.
From Usim Require Import ListFacts TimedInsert SimEvent.
Open Scope Z_scope.

Lemma nth_upd {A} (f : A -> A) d m l n :
  nth n (upd m f l) d = if (n =? m)%nat && (m <? length l)%nat then f (nth n l d) else nth n l d.
Proof.
  revert m n; induction l as [|x l IH]; intros [|m] [|n]; cbn; auto.
  - now rewrite andb_false_r.
  - apply IH.
Qed.

Lemma nth_upd_same {A} (f : A -> A) d m l : (m < length l)%nat -> nth m (upd m f l) d = f (nth m l d).
Proof. intros H. now rewrite nth_upd, Nat.eqb_refl, (proj2 (Nat.ltb_lt _ _) H). Qed.

Lemma nth_upd_at {A} (R : A -> A -> Prop) (f : A -> A) d m l :
  (forall x, R x x) -> R (nth m l d) (f (nth m l d)) -> forall n, R (nth n l d) (nth n (upd m f l) d).
Proof.
  intros Hr Hf n. rewrite nth_upd. destruct (Nat.eqb_spec n m) as [->|_]; [|apply Hr].
  destruct (m <? length l)%nat; [apply Hf | apply Hr].
Qed.

Lemma upd_length {A} (f : A -> A) m l : length (upd m f l) = length l.
Proof. revert m; induction l; intros [|m]; cbn; auto. Qed.

Lemma get_upd_ev (R : event -> event -> Prop) e f p :
  (forall x, R x x) -> R (get_ev p e) (f (get_ev p e)) -> forall n, R (get_ev p n) (get_ev (upd_ev e f p) n).
Proof. exact (nth_upd_at R f ev0 e (evs p)). Qed.

Lemma get_upd_iq (R : iq -> iq -> Prop) q f p :
  (forall x, R x x) -> R (get_iq p q) (f (get_iq p q)) -> forall n, R (get_iq p n) (get_iq (upd_iq q f p) n).
Proof. exact (nth_upd_at R f iq0 q (iqs p)). Qed.

(** [SimEvent.ins] is [TimedInsert.tins] at [item], by conversion *)
Lemma ins_tins t it a : ins t it a = tins t it a.
Proof. reflexivity. Qed.

Lemma ins_In t it a e : In e (ins t it a) <-> e = (t, it) \/ In e a.
Proof. rewrite ins_tins. apply tins_In. Qed.

Lemma ins_Forall (P : Z * item -> Prop) t it a : Forall P a -> P (t, it) -> Forall P (ins t it a).
Proof. rewrite ins_tins. apply tins_Forall. Qed.

Lemma pushes_nf {X} (h : X -> item) xs : forall p,
  fold_left (fun p x => push_now (h x) p) xs p
  = set_agenda (fold_left (fun a x => ins (now p) (h x) a) xs (agenda p)) p.
Proof.
  induction xs as [|x xs IH]; intros p; cbn [fold_left]; [destruct p; reflexivity|].
  rewrite IH. reflexivity.
Qed.

Lemma pushes_old {X} (h : X -> item) t xs : forall a e,
  In e a -> In e (fold_left (fun a x => ins t (h x) a) xs a).
Proof. induction xs as [|x xs IH]; cbn; intros a e H; [exact H|]. apply IH, ins_In. auto. Qed.

Lemma pushes_new {X} (h : X -> item) t xs : forall a x,
  In x xs -> In (t, h x) (fold_left (fun a x => ins t (h x) a) xs a).
Proof.
  induction xs as [|y xs IH]; intros a x H; [destruct H|]. cbn. destruct H as [->|H]; [|apply IH, H].
  apply pushes_old, ins_In. auto.
Qed.

(** The fold of [run_callbacks] in closed form.  The state is kept as [set_calls cs (set_log lg p)] along the
    induction, so that one step of the fold is such a state again by computation: no record is taken apart. *)
Lemma cbfold_acc e o cbs p : forall cs lg,
  fold_left (fun p cb => set_calls (calls p ++ [(now p, e, cb)])
                           (emit (200 + Z.of_nat cb) (Z.of_nat e) o p)) cbs (set_calls cs (set_log lg p))
  = set_calls (cs ++ map (fun cb => (now p, e, cb)) cbs)
      (set_log (lg ++ map (fun cb => (200 + Z.of_nat cb) :: Z.of_nat e :: now p :: o) cbs) p).
Proof.
  induction cbs as [|c cbs IH]; intros cs lg; cbn [fold_left map].
  - now rewrite !app_nil_r.
  - change (set_calls _ (emit _ _ o (set_calls cs (set_log lg p))))
      with (set_calls (cs ++ [(now p, e, c)]) (set_log (lg ++ [(200 + Z.of_nat c) :: Z.of_nat e :: now p :: o]) p)).
    now rewrite IH, <- !app_assoc.
Qed.

Lemma cbfold_eq e o cbs p :
  fold_left (fun p cb => set_calls (calls p ++ [(now p, e, cb)])
                           (emit (200 + Z.of_nat cb) (Z.of_nat e) o p)) cbs p
  = set_calls (calls p ++ map (fun cb => (now p, e, cb)) cbs)
      (set_log (log p ++ map (fun cb => (200 + Z.of_nat cb) :: Z.of_nat e :: now p :: o) cbs) p).
Proof. rewrite <- cbfold_acc. destruct p; reflexivity. Qed.

(** what an operation may do to one event, short of processing it *)
Inductive ev_upd (x : event) : event -> Prop :=
| eu_trig o t : e_val x = None -> ev_upd x (set_e_val o t x)
| eu_wait l : ev_upd x (set_e_wait l x)
| eu_def : ev_upd x (set_e_def x)
| eu_cb cb : e_proc x = false -> ev_upd x (add_e_cb cb x).

Definition lb (t : Z) (a : list (Z * item)) : Prop := Forall (fun x => t <= fst x) a.
Fixpoint srt (a : list (Z * item)) : Prop :=
  match a with [] => True | x :: r => lb (fst x) r /\ srt r end.

Definition item_wf (t : Z) (it : item) : Prop :=
  match it with
  | ITmoStart _ d _ born => 0 <= d /\ born = t
  | ITmoFire _ _ born d => t = born + d
  | _ => True
  end.
Definition no_tmo (it : item) : Prop :=
  match it with ITmoStart _ _ _ _ | ITmoFire _ _ _ _ => False | _ => True end.

Definition iq_ok (x : iq) : Prop := q_acc x = q_del x ++ q_causes x.

Definition pop1 t it rest p := set_delivered (delivered p ++ [(t, it)]) (set_agenda rest (set_now t p)).

(** Each move carries what the invariants below need to know of it and no more. *)
Inductive move (p : proto) : proto -> Prop :=
| mv_push t it : now p <= t -> item_wf t it -> move p (push t it p)
| mv_ev e f : ev_upd (get_ev p e) (f (get_ev p e)) -> move p (upd_ev e f p)
| mv_iq q f : (iq_ok (get_iq p q) -> iq_ok (f (get_iq p q))) -> move p (upd_iq q f p)
| mv_nf n f : move p (upd_nf n f p)
| mv_log l : move p (set_log l p)
| mv_fails l : move p (set_fails l p)
| mv_close : move p (set_closed true p)
(* a trigger before the environment runs: the callbacks task waits in [_startup] ... *)
| mv_late it : no_tmo it -> move p (set_started false (startup p ++ [it]) p)
(* ... which [Environment.__aenter__] flushes into the agenda ([pushes_nf]) *)
| mv_start : move p (set_agenda (fold_left (fun a it => ins (now p) it a) (startup p) (agenda p))
                                (set_started true [] p))
(* [Event._invoke_callbacks]: every callback is called, then the event is processed *)
| mv_cbs e : e_proc (get_ev p e) = false ->
    move p (upd_ev e set_processed
              (set_calls (calls p ++ map (fun cb => (now p, e, cb)) (e_cbs (get_ev p e))) p))
| mv_pop t it rest : agenda p = (t, it) :: rest -> move p (pop1 t it rest p)
(* the first activation of a Timeout: only the popped item says that its delay is not negative *)
| mv_tmo t e d v born rest : agenda p = (t, ITmoStart e d v born) :: rest ->
    move p (push (t + d) (ITmoFire e v born d) (pop1 t (ITmoStart e d v born) rest p)).
Arguments mv_pop {p t it rest}.
Arguments mv_tmo {p t e d v born rest}.

Inductive moves (p : proto) : proto -> Prop :=
| mvs_refl : moves p p
| mvs_step q r : moves p q -> move q r -> moves p r.
Arguments mvs_step {p q r}.

Lemma moves_one p q : move p q -> moves p q.
Proof. intro M. exact (mvs_step (mvs_refl p) M). Qed.
Arguments moves_one {p q}.

Lemma moves_trans p q r : moves p q -> moves q r -> moves p r.
Proof. intros M. induction 1 as [|r s _ IH M']; [exact M | exact (mvs_step IH M')]. Qed.
Arguments moves_trans {p q r}.

Lemma no_tmo_wf t it : no_tmo it -> item_wf t it.
Proof. destruct it; cbn; tauto. Qed.

Lemma mv_push_now p it : no_tmo it -> move p (push_now it p).
Proof. intro H. apply mv_push; [lia | apply no_tmo_wf, H]. Qed.

Lemma moves_wake_all ws : forall p, moves p (wake_all ws p).
Proof.
  induction ws as [|w ws IH]; intro p; [apply mvs_refl|].
  exact (moves_trans (moves_one (mv_push_now p (IWake (fst w) (snd w)) I)) (IH _)).
Qed.

Lemma moves_trigger e o p : moves p (trigger e o p).
Proof.
  unfold trigger. destruct (e_val (get_ev p e)) eqn:V; [apply mvs_refl|].
  assert (M : moves p (wake_all (e_wait (get_ev p e)) (upd_ev e (set_e_val o (now p)) p))).
  { refine (moves_trans (moves_one (mv_ev p e _ _)) (moves_wake_all _ _)). apply eu_trig, V. }
  set (p1 := wake_all _ _) in *. destruct (closed p1); [exact M|].
  destruct (started p1); refine (mvs_step M _); [apply mv_push_now | apply mv_late]; exact I.
Qed.

Lemma moves_stop res p : moves p (stop res p).
Proof.
  unfold stop. destruct (closed p); [apply mvs_refl|].
  exact (mvs_step (moves_one (mv_log p _)) (mv_close _)).
Qed.

Lemma moves_run_callbacks e p : moves p (run_callbacks e p).
Proof.
  unfold run_callbacks. destruct (e_proc (get_ev p e)) eqn:P; [apply mvs_refl|]. rewrite cbfold_eq.
  set (l := log p ++ _).
  assert (M : moves p (upd_ev e set_processed
                (set_calls (calls p ++ map (fun cb => (now p, e, cb)) (e_cbs (get_ev p e))) (set_log l p)))).
  { exact (mvs_step (moves_one (mv_log p l)) (mv_cbs (set_log l p) e P)). }
  destruct (is_ok (val_of p e) || e_def (get_ev p e)); [exact M|].
  refine (mvs_step (mvs_step M (mv_fails _ _)) _). apply mv_push_now. exact I.
Qed.

Lemma moves_pop p : moves p (pop p).
Proof.
  unfold pop. destruct (agenda p) as [|[t it] rest] eqn:A; [apply mvs_refl|].
  pose proof (moves_one (mv_pop A)) as M. unfold pop1 in M. set (p1 := set_delivered _ _) in *.
  destruct (closed p1); [exact M|]. destruct it; try exact M.
  - exact (moves_trans M (moves_run_callbacks e p1)).
  - exact (moves_one (mv_tmo A)).
  - exact (moves_trans M (moves_trigger e (OVal v) p1)).
  - exact (moves_trans M (moves_stop _ p1)).
Qed.

Theorem exec_op_moves p o : moves p (exec_op p o).
Proof.
  destruct o; cbn [exec_op].
  - destruct (client_item it) eqn:C; [|apply mvs_refl]. destruct (Z.leb_spec (now p) t); [|apply mvs_refl].
    apply moves_one, mv_push; [assumption | destruct it; try discriminate C; exact I].
  - apply moves_pop.
  - apply moves_trigger.
  - destruct (triggered p e); apply moves_one; [apply mv_push_now; exact I | apply mv_ev, eu_wait].
  - apply moves_one, mv_ev, eu_wait.
  - destruct (e_proc (get_ev p e)) eqn:P; [apply mvs_refl|]. apply moves_one, mv_ev, eu_cb, P.
  - apply moves_one, mv_ev, eu_def.
  - destruct (Z.leb_spec 0 d); [|apply mvs_refl]. destruct (closed p); [apply mvs_refl|].
    destruct (started p); [|apply mvs_refl]. apply moves_one, mv_push; [lia | split; auto].
  - destruct (triggered p _); [apply mvs_refl|]. cbn zeta. set (p1 := upd_iq q _ p).
    assert (M : moves p p1).
    { apply moves_one, mv_iq. unfold iq_ok; cbn. intros ->. symmetry. apply app_assoc. }
    destruct (q_causes (get_iq p q)); [|exact M].
    refine (moves_trans (mvs_step M (mv_iq _ _ _ _)) (moves_wake_all _ _)). exact (fun H => H).
  - destruct (q_causes (get_iq p q)) as [|c r] eqn:E; [apply mvs_refl|].
    apply moves_one, mv_iq. unfold iq_ok; cbn. rewrite E. intros ->. now rewrite <- app_assoc.
  - destruct (q_causes (get_iq p q)); apply moves_one; [apply mv_iq; exact (fun H => H) | apply mv_push_now; exact I].
  - apply moves_one, mv_iq. exact (fun H => H).
  - destruct (f_val (get_nf p f)); [apply mvs_refl|].
    exact (moves_trans (moves_one (mv_nf p f _)) (moves_wake_all _ _)).
  - destruct (f_val (get_nf p f)); apply moves_one; [apply mv_push_now; exact I | apply mv_nf].
  - apply moves_one, mv_nf.
  - apply moves_one, mv_log.
  - destruct (started p); [apply mvs_refl|]. rewrite (pushes_nf (fun it => it)). exact (moves_one (mv_start p)).
  - apply moves_stop.
Qed.

Lemma exec_ops_rel (R : proto -> proto -> Prop) :
  (forall p, R p p) -> (forall p q r, R p q -> R q r -> R p r) -> (forall p q, move p q -> R p q) ->
  forall ops p, R p (exec_ops p ops).
Proof.
  intros Rr Rt Rm ops p. apply (fold_left_inv exec_op (R p)); [|apply Rr].
  intros s o H. apply (Rt _ _ _ H). induction (exec_op_moves s o) as [|q r _ IH M]; [apply Rr|].
  exact (Rt _ _ _ IH (Rm _ _ M)).
Qed.

Lemma exec_ops_inv (I : proto -> Prop) :
  (forall p q, move p q -> I p -> I q) -> forall ops p, I p -> I (exec_ops p ops).
Proof. intros H. apply (exec_ops_rel (fun p q => I p -> I q)); auto. Qed.

Theorem trigger_once p e o o' :
  e_val (get_ev p e) = Some o' -> exec_op p (OpTrigger e o) = p.
Proof. intro H; cbn; unfold trigger; rewrite H; reflexivity. Qed.

Definition ev_le (x y : event) : Prop :=
  (forall o, e_val x = Some o -> e_val y = Some o /\ e_time y = e_time x)
  /\ (e_proc x = true -> e_proc y = true)
  /\ (e_def x = true -> e_def y = true)
  /\ e_leaves y = e_leaves x.

Lemma ev_le_refl x : ev_le x x.
Proof. repeat split; auto. Qed.

Lemma ev_le_trans x y z : ev_le x y -> ev_le y z -> ev_le x z.
Proof.
  intros (a&b&c&d) (a'&b'&c'&d'); repeat split; auto; try congruence.
  - destruct (a _ H) as [H1 _]; apply (a' _ H1).
  - destruct (a _ H) as [H1 H2]. destruct (a' _ H1) as [_ H3]. congruence.
Qed.

Lemma ev_upd_le x y : ev_upd x y -> ev_le x y.
Proof. intros []; unfold ev_le; cbn; repeat split; auto; congruence. Qed.

Lemma move_ev_le p q n : move p q -> ev_le (get_ev p n) (get_ev q n).
Proof.
  destruct 1; try apply ev_le_refl.
  - apply (get_upd_ev ev_le); [exact ev_le_refl | apply ev_upd_le; assumption].
  - apply (get_upd_ev ev_le e set_processed (set_calls _ p)); [exact ev_le_refl | repeat split; auto].
Qed.

(** what is known of an event only grows *)
Theorem exec_ops_ev_le ops p n : ev_le (get_ev p n) (get_ev (exec_ops p ops) n).
Proof.
  revert n. apply (exec_ops_rel (fun p q => forall n, ev_le (get_ev p n) (get_ev q n))).
  - intros; apply ev_le_refl.
  - intros ? ? ? H1 H2 n. exact (ev_le_trans _ _ _ (H1 n) (H2 n)).
  - intros ? ? M n. exact (move_ev_le _ _ n M).
Qed.

Theorem value_stable p e o ops :
  e_val (get_ev p e) = Some o ->
  e_val (get_ev (exec_ops p ops) e) = Some o /\ e_time (get_ev (exec_ops p ops) e) = e_time (get_ev p e).
Proof. intro H. destruct (exec_ops_ev_le ops p e) as (a&_). auto. Qed.

Theorem processed_stable p e ops :
  e_proc (get_ev p e) = true -> e_proc (get_ev (exec_ops p ops) e) = true.
Proof. intro H. destruct (exec_ops_ev_le ops p e) as (_&b&_). auto. Qed.

Definition agenda_ok (p : proto) : Prop :=
  srt (agenda p) /\ lb (now p) (agenda p)
  /\ Forall (fun x => item_wf (fst x) (snd x)) (agenda p)
  /\ Forall no_tmo (startup p).

(** scheduled for [t]: executed at exactly [t], or still waiting while the clock has not passed [t] *)
Definition pending_or_done (t : Z) (it : item) (p : proto) : Prop :=
  (In (t, it) (agenda p) /\ now p <= t) \/ In (t, it) (delivered p).

(** every executed activation carries the time it was scheduled for: in particular a Timeout
    task created at [born] with [delay = d] resumes (and triggers its event) at exactly [born + d] *)
Definition delivered_wf (p : proto) : Prop := Forall (fun x => item_wf (fst x) (snd x)) (delivered p).

Lemma srt_tsorted a : srt a <-> tsorted a.
Proof.
  induction a as [|x r IH]; cbn; [split; constructor|]. split.
  - intros [L S]. constructor; [apply IH, S | exact L].
  - intros H. apply Sorted.StronglySorted_inv in H as [S L]. split; [exact L | apply IH, S].
Qed.

Definition aok (n : Z) (a : list (Z * item)) : Prop :=
  srt a /\ lb n a /\ Forall (fun x => item_wf (fst x) (snd x)) a.

Lemma agenda_ok_aok p : agenda_ok p <-> aok (now p) (agenda p) /\ Forall no_tmo (startup p).
Proof. unfold agenda_ok, aok. tauto. Qed.

Lemma ins_aok n t it a : n <= t -> item_wf t it -> aok n a -> aok n (ins t it a).
Proof.
  intros N W (s&l&w). split; [|split]; [|apply ins_Forall; assumption ..].
  rewrite ins_tins. apply srt_tsorted, tins_sorted, srt_tsorted, s.
Qed.

Lemma pushes_aok n its : Forall no_tmo its ->
  forall a, aok n a -> aok n (fold_left (fun a it => ins n it a) its a).
Proof.
  induction 1 as [|it its W _ IH]; intros a H; cbn; [exact H|].
  apply IH, ins_aok; [lia | apply no_tmo_wf, W | exact H].
Qed.

Definition grow (p q : proto) : Prop :=
  now q = now p /\ incl (agenda p) (agenda q) /\ delivered q = delivered p
  /\ (agenda_ok p -> agenda_ok q).

Lemma grow_same p q :
  now q = now p -> agenda q = agenda p -> delivered q = delivered p -> startup q = startup p -> grow p q.
Proof.
  intros a b c d; unfold grow, agenda_ok; rewrite a, b, c, d; repeat split; auto; try tauto.
  apply incl_refl.
Qed.

Lemma grow_push t it p : now p <= t -> item_wf t it -> grow p (push t it p).
Proof.
  intros H W. split; [reflexivity|]. split; [intros x Hx; apply ins_In; auto|]. split; [reflexivity|].
  rewrite !agenda_ok_aok. intros [A U]. split; [apply ins_aok; assumption | exact U].
Qed.

Lemma grow_late it p : no_tmo it -> grow p (set_started false (startup p ++ [it]) p).
Proof.
  intro H. split; [reflexivity|]. split; [apply incl_refl|]. split; [reflexivity|].
  rewrite !agenda_ok_aok. intros [A U]. split; [exact A|]. apply Forall_app; split; [exact U | constructor; auto].
Qed.

Lemma grow_start p :
  grow p (set_agenda (fold_left (fun a it => ins (now p) it a) (startup p) (agenda p)) (set_started true [] p)).
Proof.
  split; [reflexivity|]. split; [intros x; apply pushes_old|]. split; [reflexivity|].
  rewrite !agenda_ok_aok. intros [A U]. split; [apply pushes_aok; assumption | constructor].
Qed.

(** a move either only adds activations, or takes the head of the agenda first *)
Lemma move_agenda p q : move p q ->
  grow p q \/ exists t it rest, agenda p = (t, it) :: rest /\ (item_wf t it -> grow (pop1 t it rest p) q).
Proof.
  destruct 1; try (left; apply grow_same; reflexivity).
  - left. apply grow_push; assumption.
  - left. apply grow_late; assumption.
  - left. apply grow_start.
  - right. exists t, it, rest. split; [assumption|]. intros _. apply grow_same; reflexivity.
  - right. exists t, (ITmoStart e d v born), rest. split; [assumption|]. intros [D B].
    apply grow_push; cbn; lia.
Qed.

(** all that the theorems below need to know of two states, one after the other *)
Definition later (p q : proto) : Prop :=
  agenda_ok p ->
  agenda_ok q /\ now p <= now q /\ (forall t it, pending_or_done t it p -> pending_or_done t it q)
  /\ (delivered_wf p -> delivered_wf q).

Lemma later_refl p : later p p.
Proof. intro OK. split; [exact OK|]. split; [lia|]. split; auto. Qed.

Lemma later_trans p q r : later p q -> later q r -> later p r.
Proof.
  intros H1 H2 OK. destruct (H1 OK) as (a&b&c&d). destruct (H2 a) as (a'&b'&c'&d').
  split; [exact a'|]. split; [lia|]. split; auto.
Qed.

Lemma grow_later p q : grow p q -> later p q.
Proof.
  intros (a&b&c&d) OK. split; [exact (d OK)|]. split; [lia|]. split.
  - intros t it [[I N]|D]; [left; split; [apply b, I | lia] | right; rewrite c; exact D].
  - unfold delivered_wf. now rewrite c.
Qed.

Lemma pop1_later p t it rest : agenda p = (t, it) :: rest -> later p (pop1 t it rest p).
Proof.
  intros A OK. destruct OK as (s&l&w&u). rewrite A in *. destruct s as [lt s].
  apply Forall_cons_iff in l as [N l]. apply Forall_cons_iff in w as [W w]. cbn in N, W.
  split; [exact (conj s (conj lt (conj w u)))|]. split; [exact N|]. split.
  - intros t' it' [[I _]|D]; [rewrite A in I; destruct I as [E|I]|].
    + right. apply in_or_app. right. left. exact E.
    + left. split; [exact I|]. exact (proj1 (Forall_forall _ _) lt _ I).
    + right. apply in_or_app. left. exact D.
  - intros D. apply Forall_app. split; [exact D | constructor; auto].
Qed.

Lemma move_later p q : move p q -> later p q.
Proof.
  intros M. destruct (move_agenda _ _ M) as [G|(t&it&rest&A&G)]; [exact (grow_later _ _ G)|].
  intros OK. assert (W : item_wf t it).
  { destruct OK as (_&_&w&_). rewrite A in w. exact (proj1 (proj1 (Forall_cons_iff _ _ _) w)). }
  exact (later_trans _ _ _ (pop1_later _ _ _ _ A) (grow_later _ _ (G W)) OK).
Qed.

Theorem exec_ops_later ops p : later p (exec_ops p ops).
Proof. exact (exec_ops_rel later later_refl later_trans move_later ops p). Qed.

Theorem exec_ops_agenda_ok ops p : agenda_ok p -> agenda_ok (exec_ops p ops).
Proof. intro OK. apply (exec_ops_later ops p OK). Qed.

Theorem now_mono ops : forall p, agenda_ok p -> now p <= now (exec_ops p ops).
Proof. intros p OK. apply (exec_ops_later ops p OK). Qed.

Theorem delivered_exactly_at p t it ops :
  agenda_ok p -> In (t, it) (agenda p) -> pending_or_done t it (exec_ops p ops).
Proof.
  intros OK HI. apply (exec_ops_later ops p OK). left. split; [exact HI|].
  destruct OK as (_&b&_). exact (proj1 (Forall_forall _ _) b _ HI).
Qed.

Theorem timeout_exact ops : forall p,
  agenda_ok p -> delivered_wf p ->
  forall t e v born d, In (t, ITmoFire e v born d) (delivered (exec_ops p ops)) -> t = born + d.
Proof.
  intros p OK D t e v born d H. destruct (exec_ops_later ops p OK) as (_&_&_&W).
  exact (proj1 (Forall_forall _ _) (W D) _ H).
Qed.

(** creation stamps [born = now]; the first activation schedules the resumption [d] later;
    the resumption triggers the event with the fixed value at the current time *)
Lemma timeout_created p e d v :
  started p = true -> closed p = false -> 0 <= d ->
  In (now p, ITmoStart e d v (now p)) (agenda (exec_op p (OpTimeout e d v))).
Proof.
  intros S C D. cbn. destruct (Z.leb_spec 0 d); [|lia]. rewrite C, S. cbn. apply ins_In; auto.
Qed.

Lemma timeout_started p t e d v born rest :
  agenda p = (t, ITmoStart e d v born) :: rest -> closed p = false ->
  In (t + d, ITmoFire e v born d) (agenda (exec_op p OpPop)).
Proof. intros A C. cbn [exec_op]. unfold pop. rewrite A. cbn. rewrite C. apply ins_In; auto. Qed.

Lemma wake_all_nf ws p :
  wake_all ws p = set_agenda (fold_left (fun a w => ins (now p) (IWake (fst w) (snd w)) a) ws (agenda p)) p.
Proof. exact (pushes_nf (fun w => IWake (fst w) (snd w)) ws p). Qed.

Lemma trigger_effect p e o :
  e_val (get_ev p e) = None -> (e < length (evs p))%nat ->
  let p' := trigger e o p in
  now p' = now p
  /\ e_val (get_ev p' e) = Some o /\ e_time (get_ev p' e) = now p /\ e_wait (get_ev p' e) = []
  /\ (forall w, In w (e_wait (get_ev p e)) -> In (now p, IWake (fst w) (snd w)) (agenda p')).
Proof.
  intros V L. cbn zeta. unfold trigger. rewrite V, wake_all_nf.
  cbn [closed started startup now agenda set_agenda upd_ev set_evs].
  set (a := fold_left _ _ _).
  (* whichever way the callbacks task is scheduled, the state has the clock of [p], the updated events and
     at least the agenda [a] *)
  assert (G : forall q, now q = now p -> evs q = upd e (set_e_val o (now p)) (evs p) -> incl a (agenda q) ->
    now q = now p
    /\ e_val (get_ev q e) = Some o /\ e_time (get_ev q e) = now p /\ e_wait (get_ev q e) = []
    /\ (forall w, In w (e_wait (get_ev p e)) -> In (now p, IWake (fst w) (snd w)) (agenda q))).
  { intros q N E I. unfold get_ev. rewrite E, nth_upd_same by exact L. cbn. repeat split; auto.
    intros w Hw. apply I. exact (pushes_new (fun w => IWake (fst w) (snd w)) _ _ _ _ Hw). }
  destruct (closed p); [|destruct (started p)]; apply G; try reflexivity; try apply incl_refl.
  intros x Hx. apply ins_In. auto.
Qed.

Lemma timeout_fired p t e v born d rest :
  agenda p = (t, ITmoFire e v born d) :: rest -> closed p = false ->
  e_val (get_ev p e) = None -> (e < length (evs p))%nat ->
  let p' := exec_op p OpPop in
  now p' = t /\ e_val (get_ev p' e) = Some (OVal v) /\ e_time (get_ev p' e) = t.
Proof.
  intros A C V L. cbn [exec_op]. unfold pop. rewrite A. cbn [closed set_delivered set_agenda set_now]. rewrite C.
  destruct (trigger_effect (pop1 t (ITmoFire e v born d) rest p) e (OVal v) V L) as (a&b&c&_). auto.
Qed.

(** The composition: once [e] is triggered with outcome [o] at time [T], then after ANY further
    history every process / activity that was waiting for [e] either has been resumed - at exactly
    [T] - or its wake-up is still queued and the clock still reads [T]; and [e] still has the
    outcome [o] (so that is the value it reads when it runs). *)
Theorem waiters_resume_at_trigger_time p e o w ops :
  agenda_ok p -> e_val (get_ev p e) = None -> In w (e_wait (get_ev p e)) ->
  let T := now p in
  let p' := exec_ops (exec_op p (OpTrigger e o)) ops in
  e_val (get_ev p' e) = Some o /\ e_time (get_ev p' e) = T
  /\ ((In (T, IWake (fst w) (snd w)) (agenda p') /\ now p' = T)
      \/ In (T, IWake (fst w) (snd w)) (delivered p')).
Proof.
  intros OK V HW. cbn zeta.
  assert (L : (e < length (evs p))%nat).
  { destruct (Nat.lt_ge_cases e (length (evs p))); auto.
    unfold get_ev in HW. rewrite nth_overflow in HW by auto. destruct HW. }
  destruct (trigger_effect p e o V L) as (a&b&c&_&f).
  change (exec_op p (OpTrigger e o)) with (trigger e o p).
  set (p1 := trigger e o p) in *.
  assert (OK1 : agenda_ok p1) by exact (exec_ops_agenda_ok [OpTrigger e o] p OK).
  destruct (value_stable p1 e o ops b) as [v1 v2]. split; [exact v1|]. split; [congruence|].
  destruct (delivered_exactly_at p1 (now p) (IWake (fst w) (snd w)) ops OK1 (f w HW)) as [[x y]|x]; auto.
  left; split; auto. pose proof (now_mono ops p1 OK1). lia.
Qed.

Definition calls_of (e : nat) (p : proto) : list nat :=
  map snd (filter (fun c => Nat.eqb (snd (fst c)) e) (calls p)).

Definition cb_inv (p : proto) : Prop :=
  forall e, let x := get_ev p e in
    (e_proc x = false -> e_cbs x = e_added x /\ calls_of e p = [])
    /\ (e_proc x = true -> e_cbs x = [] /\ calls_of e p = e_added x).

Definition cb_ok (x : event) (cs : list nat) : Prop :=
  (e_proc x = false -> e_cbs x = e_added x /\ cs = [])
  /\ (e_proc x = true -> e_cbs x = [] /\ cs = e_added x).

Lemma cb_inv_ok p : cb_inv p <-> forall e, cb_ok (get_ev p e) (calls_of e p).
Proof. reflexivity. Qed.

Lemma ev_upd_cb x y cs : ev_upd x y -> cb_ok x cs -> cb_ok y cs.
Proof.
  intros [o t _|l| |cb P]; try exact (fun H => H).
  intros [H _]. destruct (H P) as [E ->]. split; cbn; [intros _ | congruence]. now rewrite E.
Qed.

Lemma calls_of_cbs n e t c p :
  calls_of n (set_calls (calls p ++ map (fun cb => (t, e, cb)) c) p)
  = calls_of n p ++ (if Nat.eqb e n then c else []).
Proof.
  unfold calls_of. cbn [calls set_calls]. rewrite filter_app, map_app. f_equal.
  destruct (Nat.eqb e n) eqn:E; induction c as [|cb c IH]; cbn; rewrite ?E; cbn; congruence.
Qed.

Lemma move_cb p q : move p q -> cb_inv p -> cb_inv q.
Proof.
  intros M H. destruct M as [| e f U | | | | | | | | e P | |]; try exact H.
  - intro n. apply (get_upd_ev (fun x y => cb_ok x (calls_of n p) -> cb_ok y (calls_of n p)));
      [auto | exact (ev_upd_cb _ _ _ U) | apply H].
  - apply cb_inv_ok. intro n. change (calls_of n (upd_ev e set_processed ?q)) with (calls_of n q).
    rewrite calls_of_cbs. unfold get_ev at 1, upd_ev. cbn [evs set_evs set_calls]. rewrite nth_upd.
    destruct (Nat.eqb_spec n e) as [->|N]; cbn [andb].
    + rewrite Nat.eqb_refl. destruct (H e) as [H1 _]. destruct (H1 P) as [E1 E2]. fold (get_ev p e).
      destruct (Nat.ltb_spec e (length (evs p))) as [L|L].
      * rewrite E2. split; cbn; [discriminate | auto].
      * unfold get_ev at 2. rewrite nth_overflow by exact L. cbn [e_cbs ev0]. rewrite app_nil_r. apply H.
    + rewrite (proj2 (Nat.eqb_neq e n)), app_nil_r by auto. apply H.
Qed.

(** every registered callback of an event is invoked exactly once, in registration order, when the
    event is processed - and never before or again *)
Theorem callbacks_once ops : forall p, cb_inv p -> cb_inv (exec_ops p ops).
Proof. exact (exec_ops_inv cb_inv move_cb ops). Qed.

Definition iq_inv (p : proto) : Prop := forall q, iq_ok (get_iq p q).

Lemma move_iq p q : move p q -> iq_inv p -> iq_inv q.
Proof.
  intros M H. destruct M as [| | q f F | | | | | | | | |]; try exact H.
  intro n. exact (get_upd_iq (fun x y => iq_ok x -> iq_ok y) q f p (fun _ K => K) F n (H n)).
Qed.

(** accepted interrupts = delivered ++ pending, in call order, after any history *)
Theorem interrupt_fifo ops : forall p, iq_inv p -> iq_inv (exec_ops p ops).
Proof. exact (exec_ops_inv iq_inv move_iq ops). Qed.

Theorem interrupt_pop_oldest p q c r :
  q_causes (get_iq p q) = c :: r -> (q < length (iqs p))%nat ->
  let x := get_iq (exec_op p (OpIntPop q)) q in
  q_causes x = r /\ q_del x = q_del (get_iq p q) ++ [c].
Proof.
  intros E L. cbn. rewrite E. unfold get_iq, upd_iq; cbn [iqs set_iqs].
  rewrite nth_upd_same by auto. cbn. auto.
Qed.

Theorem interrupt_finished_noop p q c :
  triggered p (q_ev (get_iq p q)) = true -> exec_op p (OpIntPush q c) = p.
Proof. intro H; cbn; rewrite H; reflexivity. Qed.

(** an interrupt of a live, idle queue wakes the process in the current time step *)
Theorem interrupt_wakes_now p q c w :
  triggered p (q_ev (get_iq p q)) = false -> q_causes (get_iq p q) = [] ->
  In w (q_wait (get_iq p q)) ->
  let p' := exec_op p (OpIntPush q c) in
  now p' = now p /\ In (now p, IWake (fst w) (snd w)) (agenda p').
Proof.
  intros T E HW. cbn [exec_op]. cbn zeta. rewrite T, E, wake_all_nf. split; [reflexivity|].
  exact (pushes_new (fun w => IWake (fst w) (snd w)) _ _ _ _ HW).
Qed.

Lemma move_closed p q : move p q -> closed p = true -> closed q = true.
Proof. destruct 1; intro C; try exact C. reflexivity. Qed.

Theorem closed_mono ops : forall p, closed p = true -> closed (exec_ops p ops) = true.
Proof. exact (exec_ops_inv _ move_closed ops). Qed.

(** after the stop the loop may still pop activations, but they are void: no callback runs,
    no timeout fires, no event changes, nothing is logged *)
Theorem closed_pop_void p :
  closed p = true ->
  let p' := exec_op p OpPop in
  log p' = log p /\ evs p' = evs p /\ calls p' = calls p /\ iqs p' = iqs p /\ nfs p' = nfs p
  /\ fails p' = fails p /\ closed p' = true.
Proof.
  intro C. cbn. unfold pop. destruct (agenda p) as [|[t it] rest]; [repeat split; auto|].
  cbn. rewrite C. repeat split; auto.
Qed.

(** * AllOf / AnyOf: the [_check_events] algorithm over any trigger order *)
Lemma filter_len_le {A} (f : A -> bool) l : (length (filter f l) <= length l)%nat.
Proof. induction l as [|a l IH]; cbn; auto. destruct (f a); cbn; lia. Qed.

Lemma filter_length_all {A} (f : A -> bool) l :
  length (filter f l) = length l <-> (forall x, In x l -> f x = true).
Proof.
  split; [|intros H; now rewrite filter_all].
  induction l as [|x l IH]; cbn; [intros _ _ []|].
  pose proof (filter_len_le f l). destruct (f x) eqn:F; cbn; [|lia].
  intros E y [<-|Hy]; [exact F | apply IH; [lia | exact Hy]].
Qed.

Section Scan.
Variables (trig ok : nat -> bool).

Lemma scan_ok_spec ms : forall obs u o,
  scan trig ok ms obs = ScanOk u o ->
  u = filter (fun m => negb (trig m)) ms
  /\ o = (obs + length (filter trig ms))%nat
  /\ (forall m, In m ms -> trig m = true -> ok m = true).
Proof.
  induction ms as [|m r IH]; intros obs u o H; cbn in *.
  - inversion H; subst. repeat split; auto; try lia; intros ? [].
  - destruct (trig m) eqn:T; cbn in *.
    + destruct (ok m) eqn:K; [|discriminate].
      destruct (IH _ _ _ H) as (a&b&c). repeat split; auto; [cbn; lia|].
      intros x [->|Hx] Hx'; auto.
    + destruct (scan trig ok r obs) eqn:S; [discriminate|]. inversion H; subst.
      destruct (IH _ _ _ S) as (a&b&c). repeat split; auto; [congruence|].
      intros x [->|Hx] Hx'; auto; congruence.
Qed.

(** AllOf fires exactly when every member has fired successfully *)
Theorem allof_fires_iff ms u o :
  (forall m, ok m = true -> trig m = true) ->
  scan trig ok ms 0 = ScanOk u o ->
  (evaluate true ms o = true <-> forall m, In m ms -> ok m = true).
Proof.
  intros OT H. destruct (scan_ok_spec _ _ _ _ H) as (_&b&c). cbn in *. subst o.
  rewrite Nat.eqb_eq. split.
  - intros E m Hm. apply c; auto. symmetry in E. apply (proj1 (filter_length_all trig ms) E m Hm).
  - intros A. symmetry. apply filter_length_all. intros x Hx. auto.
Qed.

(** AnyOf fires exactly when some member has fired successfully (or there are no members) *)
Theorem anyof_fires_iff ms u o :
  (forall m, ok m = true -> trig m = true) ->
  scan trig ok ms 0 = ScanOk u o ->
  (evaluate false ms o = true <-> ms = [] \/ exists m, In m ms /\ ok m = true).
Proof.
  intros OT H. destruct (scan_ok_spec _ _ _ _ H) as (_&b&c). cbn in b. subst o.
  unfold evaluate. split.
  - intros E. apply orb_true_iff in E as [E|E].
    + right. destruct (filter trig ms) as [|m r] eqn:F; [discriminate|].
      assert (Hm : In m (filter trig ms)) by (rewrite F; left; auto).
      apply filter_In in Hm as [Hm Ht]. exists m; auto.
    + destruct ms; auto; discriminate.
  - intros [->|(m&Hm&Hk)]; cbn; auto. apply orb_true_iff; left.
    assert (Hi : In m (filter trig ms)) by (apply filter_In; auto).
    destruct (filter trig ms); [destruct Hi | reflexivity].
Qed.

Theorem cond_fails_with ms obs m :
  scan trig ok ms obs = ScanFail m -> In m ms /\ trig m = true /\ ok m = false.
Proof.
  revert obs m; induction ms as [|x r IH]; intros obs m H; cbn in *; [discriminate|].
  destruct (trig x) eqn:T; cbn in *.
  - destruct (ok x) eqn:K.
    + destruct (IH _ _ H) as (a&b&c); auto.
    + inversion H; subst; auto.
  - destruct (scan trig ok r obs) eqn:S; [|discriminate]. inversion H; subst.
    destruct (IH _ _ S) as (a&b&c); auto.
Qed.
End Scan.

(** the checker works incrementally (it only re-examines the members it has not yet seen fire);
    under monotone events this is the same as examining all members afresh *)
Theorem scan_incremental trig1 ok1 trig2 ok2 ms :
  (forall m, trig1 m = true -> trig2 m = true /\ ok2 m = ok1 m) ->
  forall obs u o k, scan trig1 ok1 ms obs = ScanOk u o ->
  scan trig2 ok2 u (o + k) = scan trig2 ok2 ms (obs + k).
Proof.
  intros M. induction ms as [|m r IH]; intros obs u o k H; cbn in *.
  - inversion H; subst; reflexivity.
  - destruct (trig1 m) eqn:T1; cbn in *.
    + destruct (ok1 m) eqn:K1; [|discriminate].
      destruct (M m T1) as [T2 K2]. rewrite T2, K2, K1. cbn.
      apply (IH _ _ _ k H).
    + destruct (scan trig1 ok1 r obs) eqn:Sc; [discriminate|]. inversion H; subst. cbn.
      destruct (trig2 m); cbn.
      * destruct (ok2 m); auto. apply (IH _ _ _ (S k)) in Sc.
        replace (S (o + k))%nat with (o + S k)%nat by lia.
        replace (S (obs + k))%nat with (obs + S k)%nat by lia. exact Sc.
      * rewrite (IH _ _ _ k Sc). reflexivity.
Qed.

Theorem condition_value_members p leafs x :
  match cond_value p leafs with
  | OCond l => In x l <-> In x leafs /\ ev_ok p x = true
  | _ => False
  end.
Proof. cbn. rewrite filter_In. tauto. Qed.

Fixpoint iter {A} (n : nat) (f : A -> A) (x : A) : A :=
  match n with O => x | S k => iter k f (f x) end.

Lemma micro_pr g m : pr (micro g m) = exec_ops (pr m) (fst (decide g m)).
Proof. unfold micro. destruct (decide g m). reflexivity. Qed.

(** every machine run is an operation history of the protocol: all theorems above apply to it *)
Theorem micro_is_history g n : forall m, exists ops, pr (iter n (micro g) m) = exec_ops (pr m) ops.
Proof.
  induction n as [|n IH]; intro m; cbn; [exists []; reflexivity|].
  destruct (IH (micro g m)) as [ops H]. exists (fst (decide g m) ++ ops).
  rewrite H, micro_pr. symmetry. apply fold_left_app.
Qed.

Lemma run_iter g n : forall m, exists k, run g n m = iter k (micro g) m.
Proof.
  induction n as [|n IH]; intro m; cbn; [exists O; reflexivity|].
  destruct (quiescent m); [exists O; reflexivity|].
  destruct (IH (micro g m)) as [k H]. exists (S k). exact H.
Qed.

Theorem run_is_history g n : forall m, exists ops, pr (run g n m) = exec_ops (pr m) ops.
Proof. intro m. destruct (run_iter g n m) as [k ->]. apply micro_is_history. Qed.

Definition env_only (r : mrest) : Prop := Forall (fun t => is_env (kind t) = true) (tasks r).

Lemma env_only_get r tid : env_only r -> is_env (kind (get_task r tid)) = true.
Proof.
  intro H. unfold get_task. destruct (nth_in_or_default tid (tasks r) task0) as [Hi| ->]; [|reflexivity].
  exact (proj1 (Forall_forall _ _) H _ Hi).
Qed.

Lemma closed_env_task_void g p r it :
  closed p = true ->
  (forall tid, is_env (kind (get_task r tid)) = true) ->
  dispatch g p r it = ([], set_mode Idle r).
Proof.
  intros C E. destruct it; cbn; auto; rewrite E, C; cbn; rewrite ?orb_true_r; reflexivity.
Qed.

Lemma closed_micro g m :
  closed (pr m) = true -> env_only (rs m) ->
  let m' := micro g m in
  closed (pr m') = true /\ env_only (rs m') /\ log (pr m') = log (pr m) /\ evs (pr m') = evs (pr m)
  /\ calls (pr m') = calls (pr m).
Proof.
  intros C E. cbn zeta. unfold micro, decide.
  destruct (mmode (rs m)) eqn:Mo.
  - destruct (agenda (pr m)) as [|[t it] rest] eqn:A; cbn; [auto 6|].
    destruct (closed_pop_void (pr m) C) as (a&b&c&_&_&_&d). cbn in a, b, c, d. auto 6.
  - rewrite closed_env_task_void by (auto; intro; apply env_only_get; auto). cbn. auto 6.
  - rewrite (env_only_get _ tid E), C. cbn. rewrite orb_true_r. cbn. auto 6.
Qed.

(** after the stop of a stand-alone environment nothing is logged, no event changes and no callback runs *)
Theorem run_until_stops g n : forall m,
  closed (pr m) = true -> env_only (rs m) ->
  let m' := iter n (micro g) m in
  log (pr m') = log (pr m) /\ evs (pr m') = evs (pr m) /\ calls (pr m') = calls (pr m).
Proof.
  induction n as [|n IH]; intros m C E; cbn; auto.
  destruct (closed_micro g m C E) as (a&b&c&d&e).
  destruct (IH (micro g m) a b) as (x&y&z). cbn in *. repeat split; congruence.
Qed.

(** the stop itself: the root's wake-up closes the environment with the value of the `until`
    event; a failure closes it with the first recorded failure *)
Lemma root_wake_stops g p r tid tok :
  closed p = false -> dead (get_task r tid) = false -> kind (get_task r tid) = KRoot ->
  tok <> O -> tok = tokn (get_task r tid) ->
  fst (dispatch g p r (IWake tid tok)) = [OpStop (until_result g p)].
Proof.
  intros C D K T0 T. cbn. rewrite D, K, C, <- T, Nat.eqb_refl. cbn.
  destruct (Nat.eqb_spec tok 0); [congruence|]. reflexivity.
Qed.

Lemma stop_effect res p :
  closed p = false ->
  let p' := exec_op p (OpStop res) in
  closed p' = true /\ log p' = log p ++ [300 :: 0 :: (if emb p then now p else 0) :: res].
Proof. intro C. cbn. unfold stop. rewrite C. cbn. auto. Qed.

Lemma until_event_result g p e o :
  g_until g = UEvent e -> e_val (get_ev p e) = Some o -> until_result g p = 10 :: enc o.
Proof. intros U V. unfold until_result, triggered, val_of. rewrite U, V. reflexivity. Qed.

(** when the generator returns [v] the process event is triggered with [v]
    (and all the protocol theorems for a trigger apply); raising fails it *)
Theorem process_is_event g p r tid pi pc a :
  nth_error (pscript g pi) pc = Some a ->
  match a with
  | ARet v => fst (proc_act g p r tid pi pc) = [OpTrigger (pev g pi) (OVal v)]
  | ARaise k => fst (proc_act g p r tid pi pc) = [OpTrigger (pev g pi) (OFail k)]
  | _ => True
  end.
Proof. intro H. unfold proc_act. rewrite H. destruct a; auto. Qed.

Theorem process_end_is_event g p r tid pi pc :
  nth_error (pscript g pi) pc = None ->
  fst (proc_act g p r tid pi pc) = [OpTrigger (pev g pi) (OVal (-1))].
Proof. intro H. unfold proc_act. rewrite H. reflexivity. Qed.

Fixpoint count_pops (ops : list op) : nat :=
  match ops with
  | OpIntPop _ :: r => S (count_pops r)
  | _ :: r => count_pops r
  | [] => O
  end.

Lemma count_pops_app a b : count_pops (a ++ b) = (count_pops a + count_pops b)%nat.
Proof. induction a as [|x a IH]; cbn; auto. destruct x; cbn; auto. Qed.

Lemma proc_continue_spec g p r tid pi pc out exc catch pre :
  let ops := fst (proc_continue g p r tid pi pc out exc catch pre) in
  count_pops ops = count_pops pre
  /\ forall o, In o pre \/ o = OpEmit (Z.of_nat pi) (Z.of_nat pc) (enc out) -> In o ops.
Proof.
  unfold proc_continue. destruct (exc && negb catch); cbn [fst]; rewrite <- ?app_assoc, !count_pops_app;
    (split; [cbn; lia|]); intros o [H| ->]; apply in_or_app; cbn; auto.
Qed.

(** a process resuming from [yield e]: the oldest pending interrupt wins, otherwise it gets
    the event's value (or its exception, which it thereby defuses); at most one interrupt per yield *)
Theorem deliver_spec g p r tid pi pc e pre :
  count_pops pre = O ->
  let ops := fst (deliver g p r tid pi pc e pre) in
  match q_causes (get_iq p pi) with
  | c :: _ => count_pops ops = 1%nat /\ In (OpEmit (Z.of_nat pi) (Z.of_nat pc) (enc (OIntr c))) ops
  | [] => count_pops ops = O /\ In (OpEmit (Z.of_nat pi) (Z.of_nat pc) (enc (val_of p e))) ops
          /\ (ev_ok p e = false -> In (OpDefuse e) ops)
  end.
Proof.
  intro P. cbn zeta. unfold deliver. destruct (q_causes (get_iq p pi)) as [|c l]; [destruct (ev_ok p e)|].
  - destruct (proc_continue_spec g p r tid pi pc (val_of p e) false true pre) as [C I].
    rewrite C. split; [exact P|]. split; [apply I; auto | discriminate].
  - destruct (proc_continue_spec g p r tid pi pc (val_of p e) true (catch_of g pi pc) (pre ++ [OpDefuse e])) as [C I].
    rewrite C, count_pops_app, P. split; [reflexivity|]. split; [apply I; auto|].
    intros _. apply I. left. apply in_or_app. right. left. reflexivity.
  - destruct (proc_continue_spec g p r tid pi pc (OIntr c) true (catch_of g pi pc) (pre ++ [OpIntPop pi])) as [C I].
    rewrite C, count_pops_app, P. split; [reflexivity|]. apply I; auto.
Qed.

Lemma init_ev_shape g n : exists lv, get_ev (pr (init g)) n = ev_init lv.
Proof.
  unfold get_ev, init. cbn [pr evs]. unfold init_evs.
  change ev0 with (ev_init []). rewrite map_nth. eauto.
Qed.

Lemma starts_aok (f : nat -> nat) l : aok 0 (map (fun i => (0, IStart (f i))) l).
Proof.
  induction l as [|x l (a&b&c)]; cbn; [repeat split; constructor|].
  repeat split; auto; constructor; cbn; auto; lia.
Qed.

Theorem init_agenda_ok g : agenda_ok (pr (init g)).
Proof.
  apply agenda_ok_aok. unfold init. cbn [pr agenda now startup]. split; [apply starts_aok|].
  apply Forall_forall. intros x Hx. apply in_map_iff in Hx as (y&<-&_). exact I.
Qed.

Theorem init_cb_inv g : cb_inv (pr (init g)).
Proof.
  intro e. destruct (init_ev_shape g e) as [lv H]. cbn zeta. rewrite H. cbn.
  split; [auto | discriminate].
Qed.

Theorem init_iq_inv g : iq_inv (pr (init g)).
Proof.
  intro q. unfold get_iq, init. cbn [pr iqs].
  change iq0 with ((fun x : nat * bool * list action => mkIq (fst (fst x)) [] [] [] []) (O, false, [])).
  rewrite map_nth. reflexivity.
Qed.

Theorem model_invariants g n :
  let p := pr (run g n (init g)) in
  agenda_ok p /\ cb_inv p /\ iq_inv p
  /\ (forall t e v born d, In (t, ITmoFire e v born d) (delivered p) -> t = born + d).
Proof.
  cbn zeta. destruct (run_is_history g n (init g)) as [ops ->].
  split; [apply exec_ops_agenda_ok, init_agenda_ok|].
  split; [apply callbacks_once, init_cb_inv|].
  split; [apply interrupt_fifo, init_iq_inv|].
  apply timeout_exact; [apply init_agenda_ok | constructor].
Qed.
