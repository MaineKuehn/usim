(** One time condition object ([time >= d]) used by several simulations (event loops), one after the other or nested.
    [After._ensure_trigger] must schedule the trigger activity once PER LOOP in which somebody subscribes before the date.
    State of the object: what it remembers about scheduling; the loops are abstract identities.
    - [ensure_fixed]: remembers the loop in which the trigger lives (the code after the repair of finding D24);
    - [ensure_flag]:  remembers a boolean (the code before the repair).
    Theorems: with [ensure_fixed] every loop that subscribes has a trigger of its own (for every history of uses); with
    [ensure_flag] the second loop has none ([_refuted]). *)
From Coq Require Import List PeanoNat.
From Usim Require Import ListFacts.
Import ListNotations.

Definition loop := nat.

(** the triggers scheduled so far, per loop, and the object's memory *)
Record st (M : Type) := { mem : M; triggers : list loop }.
Arguments mem {M}. Arguments triggers {M}.

(** [_ensure_trigger] called by a subscriber running in loop [l] *)
Definition ensure_fixed (s : st (option loop)) (l : loop) : st (option loop) :=
  match mem s with
  | Some l' => if Nat.eqb l l' then s else {| mem := Some l; triggers := l :: triggers s |}
  | None => {| mem := Some l; triggers := l :: triggers s |}
  end.

Definition ensure_flag (s : st bool) (l : loop) : st bool :=
  if mem s then s else {| mem := true; triggers := l :: triggers s |}.

Definition run {M} (f : st M -> loop -> st M) (init : M) (uses : list loop) : st M :=
  fold_left f uses {| mem := init; triggers := [] |}.

Lemma fixed_step_keeps s l x : In x (triggers s) -> In x (triggers (ensure_fixed s l)).
Proof. unfold ensure_fixed. destruct (mem s) as [l'|]; [destruct (Nat.eqb l l')|]; cbn; auto. Qed.

Lemma fold_fixed_keeps uses s x : In x (triggers s) -> In x (triggers (fold_left ensure_fixed uses s)).
Proof. exact (fold_left_inv ensure_fixed (fun s => In x (triggers s)) (fun s l => fixed_step_keeps s l x) uses s). Qed.

Lemma fixed_step_only s l x : In x (triggers (ensure_fixed s l)) -> x = l \/ In x (triggers s).
Proof.
  unfold ensure_fixed. destruct (mem s) as [l'|]; [destruct (Nat.eqb l l')|]; cbn; auto; intros [<-|H]; auto.
Qed.

(** invariant: what the object remembers is a loop that has a trigger *)
Definition good (s : st (option loop)) : Prop := forall l, mem s = Some l -> In l (triggers s).

Lemma fixed_step_has s l : good s -> In l (triggers (ensure_fixed s l)).
Proof.
  unfold ensure_fixed. intros G. destruct (mem s) as [l'|] eqn:E; [|left; reflexivity].
  destruct (Nat.eqb l l') eqn:El; [|left; reflexivity].
  apply Nat.eqb_eq in El. subst l'. exact (G l E).
Qed.

Lemma fixed_step_good s l : good s -> good (ensure_fixed s l).
Proof.
  intros G k. unfold ensure_fixed. destruct (mem s) as [l'|]; [destruct (Nat.eqb l l')|]; cbn.
  - exact (G k).
  - intros [= <-]. left. reflexivity.
  - intros [= <-]. left. reflexivity.
Qed.

Lemma fold_fixed_good uses : forall s, good s -> good (fold_left ensure_fixed uses s).
Proof. exact (fold_left_inv ensure_fixed good fixed_step_good uses). Qed.

Theorem fixed_every_loop_has_a_trigger uses l : In l uses -> In l (triggers (run ensure_fixed None uses)).
Proof.
  (* up to the use in [l] the invariant holds, that use leaves a trigger for [l], and triggers are never removed *)
  intros Hin. apply in_split in Hin as (before & after & ->).
  unfold run. rewrite fold_left_app. cbn [fold_left]. apply fold_fixed_keeps, fixed_step_has, fold_fixed_good.
  intros k H. discriminate H.
Qed.

Theorem fixed_only_subscribed_loops uses l : In l (triggers (run ensure_fixed None uses)) -> In l uses.
Proof.
  unfold run. induction uses as [|u uses IH] using rev_ind; [exact (fun H => H)|].
  rewrite fold_left_app, in_app_iff. cbn. intros H. apply fixed_step_only in H as [->|H]; auto.
Qed.

Theorem flag_second_loop_has_no_trigger_refuted :
  exists uses l, In l uses /\ ~ In l (triggers (run ensure_flag false uses)).
Proof. exists [1; 2], 2. split; [right; left; reflexivity|]. vm_compute. intros [H|[]]. discriminate H. Qed.

Example ex_nested : triggers (run ensure_fixed None [1; 2; 1; 2; 2; 3]) = [3; 2; 1; 2; 1].
Proof. vm_compute. reflexivity. Qed.
