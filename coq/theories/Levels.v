(* Resource level vectors: usim/_basics/_resource_level.py.

   A specialisation of ResourceLevels has a fixed sorted tuple of field names; a value is the
   vector of its fields in that order.  Here: lists of Z, read through [get] (missing
   positions read 0, the `zero` default of __init__), with the number of fields [n] given
   to the comparisons.  __add__/__sub__ are element-wise; every comparison is
   "all element pairs satisfy" -- this includes < and >, which therefore do NOT form a
   total order -- except __ne__, which is defined as `not ==`. *)
Require Import ZArith List Bool Lia.
Import ListNotations.
Open Scope Z_scope.

Definition levels := list Z.

Definition get (k : nat) (a : levels) : Z := nth k a 0.

Fixpoint ladd (a b : levels) : levels :=
  match a, b with
  | [], _ => b
  | _, [] => a
  | x :: a', y :: b' => (x + y) :: ladd a' b'
  end.

Definition lneg (a : levels) : levels := map Z.opp a.
Definition lsub (a b : levels) : levels := ladd a (lneg b).

Definition lall (n : nat) (r : Z -> Z -> bool) (a b : levels) : bool :=
  forallb (fun k => r (get k a) (get k b)) (seq 0 n).

Definition lge n := lall n Z.geb.
Definition lgt n := lall n Z.gtb.
Definition lle n := lall n Z.leb.
Definition llt n := lall n Z.ltb.
Definition leq n := lall n Z.eqb.
Definition lne n a b := negb (leq n a b).

(* Resources.set: fields named in the call are replaced, the others kept *)
Definition lset (n : nat) (m : list (option Z)) (a : levels) : levels :=
  map (fun k => match nth k m None with Some v => v | None => get k a end) (seq 0 n).

Lemma get_nil : forall k, get k [] = 0.
Proof. destruct k; reflexivity. Qed.

Lemma get_ladd : forall a b k, get k (ladd a b) = get k a + get k b.
Proof.
  unfold get. induction a; intros; simpl.
  - destruct k; simpl; lia.
  - destruct b; simpl.
    + destruct k; simpl; lia.
    + destruct k; simpl; auto.
Qed.

Lemma get_lneg : forall a k, get k (lneg a) = - get k a.
Proof.
  unfold get, lneg. induction a; intros; destruct k; simpl; auto.
Qed.

Lemma get_lsub : forall a b k, get k (lsub a b) = get k a - get k b.
Proof. intros. unfold lsub. rewrite get_ladd, get_lneg. lia. Qed.

Lemma get_beyond : forall a k, (length a <= k)%nat -> get k a = 0.
Proof. intros. unfold get. apply nth_overflow. auto. Qed.

Lemma lall_spec : forall n r a b,
  lall n r a b = true <-> forall k, (k < n)%nat -> r (get k a) (get k b) = true.
Proof.
  intros. unfold lall. rewrite forallb_forall. split; intros H k Hk.
  - apply H. apply in_seq. lia.
  - apply H. apply in_seq in Hk. lia.
Qed.

Lemma lall_rel : forall n r (R : Z -> Z -> Prop) a b, (forall x y, r x y = true <-> R x y) ->
  (lall n r a b = true <-> forall k, (k < n)%nat -> R (get k a) (get k b)).
Proof. intros n r R a b HR. rewrite lall_spec. split; intros H k Hk; apply HR, H, Hk. Qed.

Lemma lge_spec : forall n a b, lge n a b = true <-> forall k, (k < n)%nat -> get k b <= get k a.
Proof. intros. apply (lall_rel n Z.geb (fun x y => y <= x)). intros. apply Z.geb_le. Qed.

Lemma lle_spec : forall n a b, lle n a b = true <-> forall k, (k < n)%nat -> get k a <= get k b.
Proof. intros. apply (lall_rel n Z.leb Z.le). intros. apply Z.leb_le. Qed.

Lemma leq_spec : forall n a b, leq n a b = true <-> forall k, (k < n)%nat -> get k a = get k b.
Proof. intros. apply (lall_rel n Z.eqb eq). intros. apply Z.eqb_eq. Qed.

(* a vector with no field beyond n reads 0 there: comparisons up to n speak for every position *)
Lemma lle_nil_nonneg : forall n d, (length d <= n)%nat -> lle n [] d = true -> forall k, 0 <= get k d.
Proof.
  intros n d L H k. destruct (Nat.lt_ge_cases k n) as [Hk|Hk].
  - rewrite <- (get_nil k). exact (proj1 (lle_spec n [] d) H k Hk).
  - rewrite get_beyond by lia. lia.
Qed.

Lemma lge_le_or_zero : forall n a b, (length b <= n)%nat -> lge n a b = true ->
  forall k, get k b <= get k a \/ get k b = 0.
Proof.
  intros n a b L H k. destruct (Nat.lt_ge_cases k n) as [Hk|Hk].
  - left. exact (proj1 (lge_spec n a b) H k Hk).
  - right. apply get_beyond. lia.
Qed.

Lemma get_map_seq : forall (f : nat -> Z) n k,
  get k (map f (seq 0 n)) = if (k <? n)%nat then f k else 0.
Proof.
  intros. unfold get. destruct (k <? n)%nat eqn:E.
  - apply Nat.ltb_lt in E.
    rewrite nth_indep with (d' := f 0%nat) by (rewrite map_length, seq_length; auto).
    rewrite map_nth. rewrite seq_nth; auto.
  - apply Nat.ltb_ge in E. apply nth_overflow. rewrite map_length, seq_length. auto.
Qed.

Lemma get_lset : forall n m a k,
  get k (lset n m a) =
  if (k <? n)%nat then match nth k m None with Some v => v | None => get k a end else 0.
Proof. intros. unfold lset. apply get_map_seq. Qed.

Example lt_not_total :
  llt 2 [1; 0] [0; 1] = false /\ lgt 2 [1; 0] [0; 1] = false /\ leq 2 [1; 0] [0; 1] = false.
Proof. vm_compute. auto. Qed.

Example ne_is_not_elementwise : lne 2 [1; 0] [0; 0] = true /\ lall 2 (fun x y => negb (Z.eqb x y)) [1; 0] [0; 0] = false.
Proof. vm_compute. auto. Qed.

Example ge_not_lt : lge 2 [1; 0] [0; 1] = false /\ llt 2 [1; 0] [0; 1] = false.
Proof. vm_compute. auto. Qed.

(* executable comparison for the generated case files *)
Definition lz_eqb (a b : list Z) : bool :=
  (length a =? length b)%nat && forallb (fun p => Z.eqb (fst p) (snd p)) (combine a b).

Definition level_case := (nat * list Z * list Z * list Z * list Z * list bool)%type.
Definition level_case_ok (c : level_case) : bool :=
  let '(n, a, b, s, d, cs) := c in
  lz_eqb (ladd a b) s && lz_eqb (lsub a b) d &&
  forallb (fun p => Bool.eqb (fst p) (snd p))
          (combine [lge n a b; lgt n a b; lle n a b; llt n a b; leq n a b; lne n a b] cs)
  && (length cs =? 6)%nat.

Fixpoint bad_levels (i : nat) (l : list level_case) : list nat :=
  match l with
  | [] => []
  | c :: r => if level_case_ok c then bad_levels (S i) r else i :: bad_levels (S i) r
  end.
