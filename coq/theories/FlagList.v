(** A Flag and its inverse as two waiter lists (flag.py, condition.py, notification.py):
      Condition.__subscribe__   if the condition holds: schedule the subscriber at once, else append it to the waiting list
      Notification.__unsubscribe__  scheduled token: revoke, else remove exactly that pair
      Flag.set(to)              rising edge: value := True, wake ALL waiters of the flag;
                                falling edge: value := False, wake ALL waiters of ~flag;  no edge: nothing
    [inv] says whether a subscription is to the flag or to its inverse.  Theorems for every history:
    nobody is ever parked on a side that currently holds; an edge wakes everybody parked on its side, in order, and
    nobody else; no subscriber is lost. *)
From Coq Require Import List Bool PeanoNat.
From Usim Require Import ListFacts.
From Usim Require WaiterList.
Import ListNotations.

Definition sub := (nat * nat)%type.           (* (waiter, token) *)
Inductive op := Sub (inv : bool) (w t : nat) | Unsub (inv : bool) (w t : nat) | SetTo (b : bool).

Record fl := { value : bool; wf : list sub; wi : list sub; scheduled : list sub; revoked : list nat; errors : nat }.

Definition sub_eqb (a b : sub) : bool := Nat.eqb (fst a) (fst b) && Nat.eqb (snd a) (snd b).
Fixpoint remove_first (x : sub) (l : list sub) : option (list sub) :=
  match l with
  | [] => None
  | y :: r => if sub_eqb x y then Some r else option_map (cons y) (remove_first x r)
  end.
Definition is_scheduled (s : fl) (t : nat) : bool := existsb (fun p => Nat.eqb (snd p) t) (scheduled s).

Definition holds (s : fl) (inv : bool) : bool := if inv then negb (value s) else value s.

Definition step (s : fl) (o : op) : fl :=
  match o with
  | Sub inv w t =>
      if holds s inv
      then {| value := value s; wf := wf s; wi := wi s; scheduled := scheduled s ++ [(w, t)]; revoked := revoked s; errors := errors s |}
      else if inv
      then {| value := value s; wf := wf s; wi := wi s ++ [(w, t)]; scheduled := scheduled s; revoked := revoked s; errors := errors s |}
      else {| value := value s; wf := wf s ++ [(w, t)]; wi := wi s; scheduled := scheduled s; revoked := revoked s; errors := errors s |}
  | Unsub inv w t =>
      if is_scheduled s t
      then {| value := value s; wf := wf s; wi := wi s; scheduled := scheduled s; revoked := revoked s ++ [t]; errors := errors s |}
      else match remove_first (w, t) (if inv then wi s else wf s) with
           | Some l => if inv
                       then {| value := value s; wf := wf s; wi := l; scheduled := scheduled s; revoked := revoked s; errors := errors s |}
                       else {| value := value s; wf := l; wi := wi s; scheduled := scheduled s; revoked := revoked s; errors := errors s |}
           | None => {| value := value s; wf := wf s; wi := wi s; scheduled := scheduled s; revoked := revoked s; errors := S (errors s) |}
           end
  | SetTo true =>
      if value s then s
      else {| value := true; wf := []; wi := wi s; scheduled := scheduled s ++ wf s; revoked := revoked s; errors := errors s |}
  | SetTo false =>
      if value s
      then {| value := false; wf := wf s; wi := []; scheduled := scheduled s ++ wi s; revoked := revoked s; errors := errors s |}
      else s
  end.

Definition init : fl := {| value := false; wf := []; wi := []; scheduled := []; revoked := []; errors := 0 |}.
Definition run (ops : list op) : fl := fold_left step ops init.

Lemma run_snoc ops o : run (ops ++ [o]) = step (run ops) o.
Proof. unfold run. rewrite fold_left_app. reflexivity. Qed.

Definition inv_ok (s : fl) : Prop := (value s = true -> wf s = []) /\ (value s = false -> wi s = []).

Lemma remove_first_nil x l : remove_first x [] = Some l -> False.
Proof. discriminate. Qed.

Lemma step_inv s o : inv_ok s -> inv_ok (step s o).
Proof.
  intros [Hf Hi]. destruct o as [inv w t|inv w t|b]; cbn.
  - unfold holds. destruct inv; destruct (value s) eqn:V; cbn; split; intros E; cbn in *; try congruence; auto.
  - destruct (is_scheduled s t); [split; assumption|].
    destruct inv.
    + destruct (remove_first (w, t) (wi s)) as [l|] eqn:R; cbn; split; try assumption.
      intros V. rewrite (Hi V) in R. discriminate R.
    + destruct (remove_first (w, t) (wf s)) as [l|] eqn:R; cbn; split; try assumption.
      intros V. rewrite (Hf V) in R. discriminate R.
  - destruct b; destruct (value s) eqn:V; cbn; split; intros E; cbn in *; try congruence; auto.
Qed.

Theorem never_parked_on_a_side_that_holds ops : inv_ok (run ops).
Proof. unfold run. apply fold_left_inv; [exact step_inv|]. split; reflexivity. Qed.

Theorem rising_edge_wakes_all_waiters ops : value (run ops) = false ->
  let s := run (ops ++ [SetTo true]) in
  scheduled s = scheduled (run ops) ++ wf (run ops) /\ wf s = [] /\ wi s = wi (run ops) /\ value s = true.
Proof. rewrite run_snoc. cbn [step]. intros ->. cbn. repeat split. Qed.

Theorem falling_edge_wakes_all_waiters_of_the_inverse ops : value (run ops) = true ->
  let s := run (ops ++ [SetTo false]) in
  scheduled s = scheduled (run ops) ++ wi (run ops) /\ wi s = [] /\ wf s = wf (run ops) /\ value s = false.
Proof. rewrite run_snoc. cbn [step]. intros ->. cbn. repeat split. Qed.

Theorem no_edge_wakes_nobody ops b : value (run ops) = b -> run (ops ++ [SetTo b]) = run ops.
Proof. rewrite run_snoc. cbn [step]. intros E. destruct b; rewrite E; reflexivity. Qed.

(** C08: "completes in the current time step if c is true" *)
Theorem subscribe_when_true_is_scheduled_at_once ops inv w t : holds (run ops) inv = true ->
  let s := run (ops ++ [Sub inv w t]) in
  scheduled s = scheduled (run ops) ++ [(w, t)] /\ wf s = wf (run ops) /\ wi s = wi (run ops).
Proof. rewrite run_snoc. cbn [step]. intros ->. cbn. repeat split. Qed.

Example ex_flag :
  let s := run [Sub false 1 10; Sub true 2 20; Sub false 3 30; SetTo true; Sub false 4 40; Sub true 5 50; SetTo true;
                Unsub true 5 50; SetTo false; Sub true 6 60] in
  scheduled s = [(2, 20); (1, 10); (3, 30); (4, 40); (6, 60)] /\ wf s = [] /\ wi s = [] /\ value s = false /\ errors s = 0.
Proof. vm_compute. repeat split. Qed.

Definition subs_of (ops : list op) : list sub :=
  flat_map (fun o => match o with Sub _ w t => [(w, t)] | _ => [] end) ops.
Definition unsubs_of (ops : list op) : list sub :=
  flat_map (fun o => match o with Unsub _ w t => [(w, t)] | _ => [] end) ops.
Definition accounted (s : fl) (p : sub) : Prop := In p (wf s) \/ In p (wi s) \/ In p (scheduled s).

(* [remove_first] is the one of WaiterList written out again, so its lemmas there hold here by conversion *)
Definition remove_first_other x l l' p : remove_first x l = Some l' -> In p l -> p = x \/ In p l' :=
  WaiterList.remove_first_other x l l' p.

Lemma step_keeps s o p :
  accounted s p -> accounted (step s o) p \/ In p (match o with Unsub _ w t => [(w, t)] | _ => [] end).
Proof.
  unfold accounted. intros H. destruct o as [inv w t|inv w t|b]; cbn.
  - left. destruct (holds s inv); [|destruct inv]; cbn; rewrite in_app_iff; destruct H as [H|[H|H]]; auto.
  - destruct (is_scheduled s t); [auto|].
    destruct inv.
    + destruct (remove_first (w, t) (wi s)) as [l|] eqn:E; cbn; [|auto].
      destruct H as [H|[H|H]]; auto. destruct (remove_first_other _ _ _ _ E H); auto.
    + destruct (remove_first (w, t) (wf s)) as [l|] eqn:E; cbn; [|auto].
      destruct H as [H|[H|H]]; auto. destruct (remove_first_other _ _ _ _ E H); auto.
  - left. destruct b, (value s); cbn; rewrite ?in_app_iff; destruct H as [H|[H|H]]; auto.
Qed.

Lemma step_new s o p : In p (match o with Sub _ w t => [(w, t)] | _ => [] end) -> accounted (step s o) p.
Proof.
  destruct o as [inv w t| |]; try contradiction. intros [<-|[]].
  unfold accounted. cbn. destruct (holds s inv); [|destruct inv]; cbn; rewrite in_app_iff; cbn; auto.
Qed.

Theorem nobody_is_lost ops p : In p (subs_of ops) -> accounted (run ops) p \/ In p (unsubs_of ops).
Proof. exact (WaiterList.fold_nobody_lost step accounted _ _ step_keeps step_new ops init p). Qed.
