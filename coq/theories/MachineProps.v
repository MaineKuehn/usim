(** The machine is a client of the kernel: every execution of every scenario program is an
    execution [kexec] of Kernel.v for a suitable client.  Hence the kernel theorems (time monotone,
    exact due times, FIFO order, minimum-first) hold for all machine executions from a state whose kernel satisfies
    [inv].  First come the facts about [list_upd], the update of an object table, that the files about the machine's
    objects share. *)
From Coq Require Import List PeanoNat Sorted.
From RecordUpdate Require Import RecordSet.
From Usim Require Import XTime Tables Kernel KernelProps Machine.
Import ListNotations.
Import RecordSetNotations.

Lemma length_list_upd {A} (l : list A) i x : length (list_upd l i x) = length l.
Proof. revert i; induction l as [|y r IH]; intros [|i]; cbn; auto. Qed.

Lemma nth_list_upd_eq {A} (l : list A) i x d : i < length l -> nth i (list_upd l i x) d = x.
Proof.
  revert i; induction l as [|y r IH]; intros [|i]; cbn; intros H; auto; try (now inversion H).
  apply IH, Nat.succ_lt_mono, H.
Qed.

Lemma nth_list_upd_ne {A} (l : list A) i j x d : i <> j -> nth i (list_upd l j x) d = nth i l d.
Proof.
  revert i j; induction l as [|y r IH]; intros [|i] [|j] H; cbn; auto; try congruence.
Qed.

Lemma list_upd_oob {A} (l : list A) i x : length l <= i -> list_upd l i x = l.
Proof. revert i; induction l; destruct i; cbn; intros H; auto; try (now inversion H). f_equal. apply IHl, le_S_n, H. Qed.

Lemma nth_list_upd {A} (l : list A) i j x d :
  nth i (list_upd l j x) d = if andb (Nat.eqb i j) (Nat.ltb j (length l)) then x else nth i l d.
Proof.
  destruct (Nat.eqb_spec i j) as [->|N]; [|now rewrite nth_list_upd_ne].
  destruct (Nat.ltb_spec j (length l)); [now rewrite nth_list_upd_eq | now rewrite list_upd_oob].
Qed.

Lemma nth_list_upd_proj {A B} (p : A -> B) (l : list A) i j x d :
  p x = p (nth j l d) -> p (nth i (list_upd l j x) d) = p (nth i l d).
Proof.
  intros H. rewrite nth_list_upd. destruct (Nat.eqb_spec i j) as [->|]; [|reflexivity].
  destruct (Nat.ltb j (length l)); [exact H | reflexivity].
Qed.

Definition kern_of (m : mstate) : loop := kern (ob m).

(** the eagerly updated kernel equals the activation's start kernel plus the logged requests *)
Definition synced (k0 : loop) (m : mstate) : Prop := kern_of m = kapply_all k0 (klog m).

Lemma add_acts_synced k0 sp : forall m, synced k0 m -> synced k0 (add_acts m sp).
Proof.
  unfold add_acts. induction sp as [|[a p] sp IH]; cbn; intros m H; auto.
Qed.

Definition sres_synced (k0 : loop) (r : sres) : Prop :=
  match r with SCont m _ _ _ => synced k0 m | SDone m => synced k0 m end.

Lemma finish_ctx_synced k0 m c outer r : synced k0 m -> sres_synced k0 (finish_ctx m c outer r).
Proof.
  intros H. unfold finish_ctx. destruct outer; [destruct r as [[]|] | destruct r as [|[]]]; exact H.
Qed.

(** Only a primitive touches the kernel or the log: the state changes of every other case of [step1]
    ([set_act], [set_gen], [set_closing], the result, the generator table) leave [kern_of] and [klog] as they
    are up to conversion, so the hypothesis itself closes them. *)
Lemma step1_synced k0 cur m md c outer : synced k0 m -> sres_synced k0 (step1 cur m md c outer).
Proof.
  intros H. unfold step1.
  destruct md as [[v|e|f k| |p k|p h|s body|b|f|body|g|v|g]|v|e]; try exact H.
  - destruct (f (ob m) cur) as [o' ops sp r].
    assert (Hs : synced k0 (add_acts (m <| ob := set_kern o' (kapply_all (kern (ob m)) ops) |>
                                       <| klog := klog m ++ ops |>) sp)).
    { apply add_acts_synced. unfold synced, kern_of, kapply_all in *. cbn.
      rewrite fold_left_app, <- H. reflexivity. }
    destruct r; exact Hs.
  - destruct outer; exact H.
  - destruct (nth_error (acts m) b) as [[]|]; exact H.
  - destruct (nth_error (gens m) g) as [[]|]; exact H.
  - destruct (split_gen (c_stack c) []) as [[[above []] below]|]; exact H.
  - destruct (nth_error (gens m) g) as [[]|]; exact H.
  - destruct (c_stack c) as [|[] st']; [apply finish_ctx_synced | ..]; try exact H. destruct v; exact H.
  - destruct (c_stack c) as [|[] st']; [apply finish_ctx_synced | ..]; exact H.
Qed.

Lemma exec_synced k0 fuel : forall cur m md c outer,
  synced k0 m -> synced k0 (exec fuel cur m md c outer).
Proof.
  induction fuel as [|fuel IH]; cbn; intros cur m md c outer H; [exact H|].
  assert (Hs := step1_synced k0 cur m md c outer H).
  destruct (step1 cur m md c outer) as [m' md' c' outer'|m']; cbn in Hs; auto.
Qed.

Lemma resume_synced fuel m act :
  klog m = [] -> kern_of (resume fuel m act) = kapply_all (kern_of m) (klog (resume fuel m act)).
Proof.
  intros Hk. assert (H0 : synced (kern_of m) m) by (unfold synced; rewrite Hk; reflexivity).
  unfold resume.
  destruct (nth_error (acts m) (a_tgt act)) as [[p|st| |]|]; try exact H0;
    destruct (a_sig act); apply exec_synced; exact H0.
Qed.

Definition mclient (fuel : nat) (m : mstate) (l : loop) (a : activation) : mstate * list kop :=
  let m' := resume fuel (m <| ob := set_kern (ob m) l |> <| klog := [] |>) a in (m', klog m').

(** the activations a machine executes (the run may stop earlier when an exception leaves [run()];
    what it executes is then a prefix of this list) *)
Fixpoint mtrace (n fuel : nat) (m : mstate) : list exec_event :=
  match n with
  | O => []
  | S n' =>
      match next (kern_of m) with
      | None => []
      | Some (a, k') => {| e_time := now k'; e_act := a |} :: mtrace n' fuel (mstep fuel m)
      end
  end.

Theorem machine_refines_kernel fuel n : forall m,
  mtrace n fuel m = kexec mstate (mclient fuel) n m (kern_of m).
Proof.
  induction n as [|n IH]; cbn; intros m; [reflexivity|].
  destruct (next (kern_of m)) as [[a k']|] eqn:E; [|reflexivity].
  unfold mclient at 1. cbn.
  f_equal.
  assert (Hstep : mstep fuel m = resume fuel (m <| ob := set_kern (ob m) k' |> <| klog := [] |>) a).
  { unfold mstep. unfold kern_of in E. rewrite E. reflexivity. }
  rewrite Hstep. rewrite IH. f_equal.
  rewrite resume_synced by reflexivity. reflexivity.
Qed.

Corollary machine_exec_sorted fuel n m :
  inv (kern_of m) -> StronglySorted ev_lt (mtrace n fuel m).
Proof. intros H. rewrite machine_refines_kernel. apply exec_sorted. exact H. Qed.

Corollary machine_exec_at_due fuel n m :
  inv (kern_of m) ->
  Forall (fun e => e_time e = a_due (e_act e) /\ xle (now (kern_of m)) (e_time e)) (mtrace n fuel m).
Proof. intros H. rewrite machine_refines_kernel. apply exec_at_due. exact H. Qed.

Corollary machine_time_monotone fuel n m :
  inv (kern_of m) -> StronglySorted (fun x y => xle (e_time x) (e_time y)) (mtrace n fuel m).
Proof. intros H. rewrite machine_refines_kernel. apply time_monotone. exact H. Qed.

(** the first exception escaping a root activity is the outcome of the run, unchanged *)
Lemma escape_is_result m c e :
  finish_ctx m c [] (inr e) = SDone ((set_act m (c_aid c) ADead) <| result := RRaised e |>).
Proof. reflexivity. Qed.

(** a root activity's unreceived return value is reported as an error *)
Lemma leak_reported m c v :
  v <> VU -> finish_ctx m c [] (inl v) = SDone ((set_act m (c_aid c) ADead) <| result := RRaised EActivityLeak |>).
Proof. intros H. destruct v; try reflexivity. congruence. Qed.

Lemma mrun_stops n fuel m : result m <> RGoing -> mrun (S n) fuel m = m.
Proof. cbn. destruct (result m); congruence. Qed.

(** the run ends normally at quiescence *)
Lemma mstep_quiet fuel m : next (kern_of m) = None -> mstep fuel m = m <| result := RQuiet |>.
Proof. unfold mstep, kern_of. intros H. rewrite H. reflexivity. Qed.

Lemma mstep_quiet_iff (m : mstate) :
  next (kern_of m) = None <-> Forall (fun b => is_revoked (revoked (kern_of m)) b = true) (queued (kern_of m)).
Proof. apply next_none_iff_quiescent. Qed.
