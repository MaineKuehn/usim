(** Formulas over dates: [time >= d], [time < d], [time == d] combined with [&] and [|].
    The oracle used for C01 (harness/monitors.py, expected_resume) says: a wait for such a formula that starts at [t0]
    ends at the first element of {t0} ∪ {dates mentioned, later than t0} at which the formula holds.  This file proves
    the fact that makes the candidate set complete: such a formula can only BECOME true at one of the dates it mentions
    (it has no negation: [after] turns true at its date, [before] only ever turns false, [moment] is true at its date
    only), so between two consecutive candidates nothing is missed. *)
From Coq Require Import ZArith List Bool Lia.
Import ListNotations.
Local Open Scope Z_scope.

Inductive tform :=
| TAfter (d : Z) | TBefore (d : Z) | TMoment (d : Z) | TInstant | TEternity
| TAnd (a b : tform) | TOr (a b : tform).

Fixpoint tholds (w : tform) (t : Z) : bool :=
  match w with
  | TAfter d => d <=? t
  | TBefore d => t <? d
  | TMoment d => t =? d
  | TInstant => true
  | TEternity => false
  | TAnd a b => tholds a t && tholds b t
  | TOr a b => tholds a t || tholds b t
  end.

Fixpoint tdates (w : tform) : list Z :=
  match w with
  | TAfter d | TBefore d | TMoment d => [d]
  | TInstant | TEternity => []
  | TAnd a b | TOr a b => tdates a ++ tdates b
  end.

Lemma becomes_true_at_a_date w : forall t1 t2, t1 < t2 -> tholds w t1 = false -> tholds w t2 = true ->
  exists d, In d (tdates w) /\ t1 < d <= t2.
Proof.
  induction w as [d|d|d| | |a IHa b IHb|a IHa b IHb]; intros t1 t2 Hlt H1 H2; cbn [tholds tdates] in *.
  - exists d. split; [left; reflexivity|]. apply Z.leb_gt in H1. apply Z.leb_le in H2. lia.
  - apply Z.ltb_ge in H1. apply Z.ltb_lt in H2. lia.
  - exists d. split; [left; reflexivity|]. apply Z.eqb_neq in H1. apply Z.eqb_eq in H2. lia.
  - discriminate.
  - discriminate.
  - apply andb_true_iff in H2 as [Ha Hb]. apply andb_false_iff in H1 as [H1|H1].
    + destruct (IHa t1 t2 Hlt H1 Ha) as (d & Hin & Hd). exists d. auto using in_or_app.
    + destruct (IHb t1 t2 Hlt H1 Hb) as (d & Hin & Hd). exists d. auto using in_or_app.
  - apply orb_false_iff in H1 as [Ha Hb]. apply orb_true_iff in H2 as [H2|H2].
    + destruct (IHa t1 t2 Hlt Ha H2) as (d & Hin & Hd). exists d. auto using in_or_app.
    + destruct (IHb t1 t2 Hlt Hb H2) as (d & Hin & Hd). exists d. auto using in_or_app.
Qed.

(** the oracle's candidate set is complete.  Sharper than the lemma above: the formula holds AT such a date already. *)
Theorem candidates_complete w t0 t : t0 < t -> tholds w t0 = false -> tholds w t = true ->
  exists d, In d (tdates w) /\ t0 < d <= t /\ tholds w d = true.
Proof.
  (* take the date [d] the lemma finds in (t0, t]; if the formula does not hold there, look again in (d, t], a shorter
     interval.  Structural induction on [w] would not do: [TAnd (TAfter 10) (TAfter 20)] becomes true at 20 only. *)
  remember (Z.to_nat (t - t0)) as n eqn:Hn. revert t0 Hn.
  induction n as [n IH] using lt_wf_ind. intros t0 Hn Hlt H0 Ht.
  destruct (becomes_true_at_a_date w t0 t Hlt H0 Ht) as (d & Hin & Hd).
  destruct (tholds w d) eqn:Hwd; [exists d; auto|].
  assert (d < t) as Hdt by (destruct (Z.eq_dec d t) as [->|]; [congruence|lia]).
  destruct (IH (Z.to_nat (t - d))) with (t0 := d) as (d' & Hin' & Hd' & Hw'); auto.
  - subst n. apply Z2Nat.inj_lt; lia.
  - exists d'. repeat split; try lia; assumption.
Qed.

(** once the dates are behind, a formula without negation never becomes true again *)
Corollary never_after_all_dates w t0 : (forall d, In d (tdates w) -> d <= t0) -> tholds w t0 = false ->
  forall t, t0 < t -> tholds w t = false.
Proof.
  intros Hd H0 t Hlt. destruct (tholds w t) eqn:Ht; [|reflexivity].
  destruct (becomes_true_at_a_date w t0 t Hlt H0 Ht) as [d [Hin Hr]]. specialize (Hd d Hin). lia.
Qed.

Example ex_formula :
  let w := TOr (TAnd (TAfter 10) (TAfter 20)) (TMoment 100) in
  tholds w 0 = false /\ tholds w 20 = true /\ tdates w = [10; 20; 100] /\ tholds w 10 = false.
Proof. vm_compute. repeat split. Qed.
