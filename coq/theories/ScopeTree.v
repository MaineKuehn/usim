(** Containment for the whole scope tree, by induction on ancestry.

    ScopeProto proves containment for ONE scope and its direct children (no child is alive once the block is
    left, over all reachable states and continuations).  A task's own [async with] blocks are lexically inside
    its coroutine, so they are left before the coroutine ends.  This file lifts those two local facts to all
    descendants at any depth: the tree may be infinite-branching and grow over time; only the parent relation and
    the two local containment facts are used. *)
From Coq Require Import List Lia.

Section Tree.
  (** nodes are tasks and scopes alike; [parent c p]: task [c] is a child of scope [p], or scope [c] was
      opened by the code of task [p] *)
  Variable node : Type.
  Variable parent : node -> node -> Prop.
  (** [alive x n]: at observation point [n] (any linear order of observation points; here [nat]) the node
      is not finished: a task whose code may still run, a scope whose block has not been left *)
  Variable alive : node -> nat -> Prop.
  (** local containment, the content of C04_contained (child of a scope) and of block structure (scope of a task) *)
  Hypothesis local : forall c p n, parent c p -> alive c n -> alive p n.

  Inductive descendant : node -> node -> Prop :=
  | desc_self x : descendant x x
  | desc_step x y z : parent x y -> descendant y z -> descendant x z.

  Theorem tree_contained : forall d r n, descendant d r -> alive d n -> alive r n.
  Proof.
    intros d r n H. induction H as [x | x y z Hp _ IH]; intro Ha; [exact Ha|].
    apply IH. eapply local; eauto.
  Qed.

  (** contrapositive, the form of the property: once the root scope is left, nothing below it is alive *)
  Corollary nothing_outlives : forall d r n, descendant d r -> ~ alive r n -> ~ alive d n.
  Proof. intros d r n H Hr Hd. apply Hr. eapply tree_contained; eauto. Qed.

  (** if liveness is monotone (finished stays finished), nothing below the root is alive at any later point *)
  Hypothesis finished_stays : forall x n m, n <= m -> ~ alive x n -> ~ alive x m.
  Corollary nothing_outlives_later : forall d r n m, descendant d r -> n <= m -> ~ alive r n -> ~ alive d m.
  Proof. intros d r n m H Hnm Hr. eapply nothing_outlives; eauto. Qed.
End Tree.

(** non-vacuity: a three-level tree (scope 0 > task 1 > scope 2 > task 3) with nested lifetimes *)
Definition ex_parent (c p : nat) : Prop := p + 1 = c /\ c <= 3.
Definition ex_end (x : nat) : nat := match x with 0 => 9 | 1 => 7 | 2 => 6 | _ => 4 end.
Definition ex_alive (x n : nat) : Prop := n < ex_end x.
Example ex_tree : descendant nat ex_parent 3 0 /\ (forall n, ~ ex_alive 0 n -> ~ ex_alive 3 n).
Proof.
  assert (L : forall c p n, ex_parent c p -> ex_alive c n -> ex_alive p n).
  { intros c p n [H1 H2]. unfold ex_alive. subst c.
    destruct p as [|[|[|p]]]; simpl; intros; lia. }
  assert (D : descendant nat ex_parent 3 0).
  { eapply desc_step with (y := 2); [split; auto|]. eapply desc_step with (y := 1); [split; auto|].
    eapply desc_step with (y := 0); [split; auto|]. apply desc_self. }
  split; [exact D|]. intros n. exact (nothing_outlives nat ex_parent ex_alive L 3 0 n D).
Qed.

(** the first local fact is exactly what ScopeProto proves for every reachable state of one scope instance:
    a child that is not done implies the block has not been left *)
From Usim Require Import ScopeProto ScopeProtoProps.
Lemma local_from_proto : forall k s i x, reachable k s -> nth_error (kids s) i = Some x -> isdone x = false ->
  forall c o, ph s <> Exited c o.
Proof.
  intros k s i x Hr Hn Hd c o Hp.
  destruct (contained_thm k s c o Hr Hp) as [Hall _].
  rewrite Forall_forall in Hall. specialize (Hall x (nth_error_In _ _ Hn)). congruence.
Qed.
