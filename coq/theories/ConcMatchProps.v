(** C17 - theorems about the model in ConcMatch.v (all for an arbitrary class relation [sub]) *)
From Coq Require Import List Bool PeanoNat Lia Permutation.
From Usim Require Import ListFacts ConcMatch.
Import ListNotations.

(** [ty] and [exc] are nested in [list]: the induction principles with a hypothesis for the members *)
Section TyInd.
  Variable P : ty -> Prop.
  Hypothesis HP : forall c, P (Plain c).
  Hypothesis HB : P Bare.
  Hypothesis HS : forall ms inc, (forall m, In m ms -> P m) -> P (Spec ms inc).
  Fixpoint ty_ind' (t : ty) : P t :=
    match t with
    | Plain c => HP c
    | Bare => HB
    | Spec ms inc =>
        HS ms inc (proj1 (Forall_forall P ms)
                     ((fix go (l : list ty) : Forall P l :=
                         match l with
                         | [] => Forall_nil P
                         | x :: r => Forall_cons x (ty_ind' x) (go r)
                         end) ms))
    end.
End TyInd.

Section ExcInd.
  Variable P : exc -> Prop.
  Hypothesis HL : forall c i, P (Leaf c i).
  Hypothesis HN : forall l, Forall P l -> P (Node l).
  Fixpoint exc_ind' (e : exc) : P e :=
    match e with
    | Leaf c i => HL c i
    | Node l =>
        HN l ((fix go (l : list exc) : Forall P l :=
                 match l with
                 | [] => Forall_nil P
                 | x :: r => Forall_cons x (exc_ind' x) (go r)
                 end) l)
    end.
End ExcInd.

Lemma negb_existsb_negb {A} (f : A -> bool) l :
  negb (existsb (fun x => negb (f x)) l) = forallb f l.
Proof. induction l; cbn; auto. rewrite negb_orb, negb_involutive, IHl. reflexivity. Qed.

Lemma Forall2_In {A B} (R : A -> B -> Prop) l1 l2 :
  Forall2 R l1 l2 ->
  (forall x, In x l1 -> exists y, In y l2 /\ R x y) /\ (forall y, In y l2 -> exists x, In x l1 /\ R x y).
Proof.
  induction 1 as [|x y l1 l2 Hxy _ [IHl IHr]]; [split; intros ? []|]. split.
  - intros x' [<-|Hx]; [exists y; cbn; auto|]. destruct (IHl x' Hx) as (y' & Hy' & Hr). exists y'. cbn. auto.
  - intros y' [<-|Hy]; [exists x; cbn; auto|]. destruct (IHr y' Hy) as (x' & Hx' & Hr). exists x'. cbn. auto.
Qed.

(** the shape of both [same] and [issub] on two member lists *)
Lemma forallb_existsb {A B} (f : A -> B -> bool) l1 l2 :
  forallb (fun x => existsb (f x) l2) l1 = true <-> forall x, In x l1 -> exists y, In y l2 /\ f x y = true.
Proof. rewrite forallb_forall. split; intros H x Hx; apply existsb_exists, H, Hx. Qed.

Lemma same_spec_iff m1 i1 m2 i2 :
  same (Spec m1 i1) (Spec m2 i2) = true <->
  i1 = i2 /\ (forall x, In x m1 -> exists y, In y m2 /\ same x y = true)
          /\ (forall y, In y m2 -> exists x, In x m1 /\ same x y = true).
Proof.
  cbn [same]. rewrite !andb_true_iff, eqb_true_iff, (forallb_existsb same), (forallb_existsb (fun y x => same x y)).
  tauto.
Qed.

Lemma same_refl t : same t t = true.
Proof.
  induction t as [c| |ms inc IH] using ty_ind'; cbn [same]; auto using Nat.eqb_refl.
  apply same_spec_iff. split; [reflexivity|].
  split; intros x Hx; exists x; auto.
Qed.

Lemma same_sym a : forall b, same a b = true -> same b a = true.
Proof.
  induction a as [c| |ms inc IH] using ty_ind'; intros b Hs; destruct b; try (cbn in Hs; discriminate).
  - cbn in *. rewrite Nat.eqb_sym. exact Hs.
  - reflexivity.
  - apply same_spec_iff in Hs as (Hi & H1 & H2).
    apply same_spec_iff. split; [auto|]. split; intros y Hy.
    + destruct (H2 y Hy) as (x & Hx & Hxy). exists x. split; [exact Hx|exact (IH x Hx y Hxy)].
    + destruct (H1 y Hy) as (x & Hx & Hxy). exists x. split; [exact Hx|exact (IH y Hy x Hxy)].
Qed.

Lemma same_trans a : forall b c, same a b = true -> same b c = true -> same a c = true.
Proof.
  induction a as [c| |ms inc IH] using ty_ind'; intros b d H1 H2; destruct b; try (cbn in H1; discriminate);
    destruct d; try (cbn in H2; discriminate).
  - cbn in *. apply Nat.eqb_eq in H1, H2. subst. apply Nat.eqb_refl.
  - reflexivity.
  - apply same_spec_iff in H1 as (Hi1 & A1 & B1). apply same_spec_iff in H2 as (Hi2 & A2 & B2).
    apply same_spec_iff. split; [congruence|]. split.
    + intros x Hx. destruct (A1 x Hx) as (y & Hy & Hxy). destruct (A2 y Hy) as (z & Hz & Hyz).
      exists z. split; [exact Hz|exact (IH x Hx y z Hxy Hyz)].
    + intros z Hz. destruct (B2 z Hz) as (y & Hy & Hyz). destruct (B1 y Hy) as (x & Hx & Hxy).
      exists x. split; [exact Hx|exact (IH x Hx y z Hxy Hyz)].
Qed.

(** the cache key is a frozenset: classes with the same SET of members (and the same `...` flag) are the same class *)
Lemma same_of_set_eq m1 m2 i :
  (forall t, In t m1 <-> In t m2) -> same (Spec m1 i) (Spec m2 i) = true.
Proof.
  intros H. apply same_spec_iff. split; [reflexivity|].
  split; intros x Hx; exists x; split; auto using same_refl; apply H; exact Hx.
Qed.

Lemma same_permutation m1 m2 i : Permutation m1 m2 -> same (Spec m1 i) (Spec m2 i) = true.
Proof.
  intros HP. apply same_of_set_eq. intros t. split; apply Permutation_in; [|apply Permutation_sym]; exact HP.
Qed.

Lemma same_duplicate x m i : same (Spec (x :: x :: m) i) (Spec (x :: m) i) = true.
Proof. apply same_of_set_eq. intros t. cbn. tauto. Qed.

Lemma in_item_tys t l : In t (item_tys l) <-> In (ITy t) l.
Proof.
  unfold item_tys. rewrite in_flat_map. split.
  - intros (i & Hi & Ht). destruct i; cbn in Ht; [tauto|]. destruct Ht as [->|[]]. exact Hi.
  - intros Hi. exists (ITy t). split; cbn; auto.
Qed.

Lemma has_ell_in l : has_ell l = true <-> In IEll l.
Proof.
  unfold has_ell. rewrite existsb_exists. split.
  - intros (i & Hi & Ht). destruct i; [exact Hi|discriminate].
  - intros Hi. exists IEll. auto.
Qed.

(** __getitem__: order, multiplicity and the position of `...` in the subscript are irrelevant *)
Lemma getitem_set l1 l2 :
  (forall i, In i l1 <-> In i l2) -> same (getitem (Tuple l1)) (getitem (Tuple l2)) = true.
Proof.
  intros H. cbn [getitem].
  assert (E : has_ell l1 = has_ell l2).
  { apply eq_iff_eq_true. rewrite !has_ell_in. apply H. }
  rewrite E. apply same_of_set_eq. intros t. rewrite !in_item_tys. apply H.
Qed.

Lemma getitem_one t : getitem (One (ITy t)) = getitem (Tuple [ITy t]).
Proof. reflexivity. Qed.

Lemma getitem_ellipsis : getitem (One IEll) = Bare.
Proof. reflexivity. Qed.

Lemma getitem_exclusive_members l : has_ell l = false -> getitem (Tuple l) = Spec (item_tys l) false.
Proof. intros H. cbn. rewrite H. reflexivity. Qed.

Lemma item_tys_map_ITy {A} (f : A -> ty) k : item_tys (map (fun e => ITy (f e)) k) = map f k.
Proof. induction k; cbn; [reflexivity|]. f_equal. exact IHk. Qed.

Lemma has_ell_map_ITy {A} (f : A -> ty) k : has_ell (map (fun e => ITy (f e)) k) = false.
Proof. induction k; cbn; auto. Qed.

Lemma type_of_node l : l <> [] -> type_of (Node l) = Spec (map type_of l) false.
Proof. destruct l; [congruence|reflexivity]. Qed.

(** Concurrent.__new__: the class of an instance is `Concurrent[tuple(type(child) ...)]` *)
Lemma type_of_is_getitem l : type_of (Node l) = new_type l.
Proof.
  destruct l as [|e l]; [reflexivity|].
  unfold new_type. cbn [getitem]. rewrite item_tys_map_ITy, has_ell_map_ITy. reflexivity.
Qed.

Lemma type_of_children_set l1 l2 :
  l1 <> [] ->
  (forall t, In t (map type_of l1) <-> In t (map type_of l2)) ->
  same (type_of (Node l1)) (type_of (Node l2)) = true.
Proof.
  intros Hne H. destruct l1 as [|a l1]; [congruence|].
  destruct l2 as [|b l2]; [exfalso; apply (H (type_of a)); cbn; auto|].
  cbn [type_of]. apply same_of_set_eq. exact H.
Qed.

Lemma type_of_children_perm l1 l2 :
  Permutation l1 l2 -> same (type_of (Node l1)) (type_of (Node l2)) = true.
Proof.
  intros HP. destruct l1 as [|a l1]; [apply Permutation_nil in HP; subst; reflexivity|].
  destruct l2 as [|b l2]; [apply Permutation_sym, Permutation_nil in HP; discriminate|].
  exact (same_permutation _ _ false (Permutation_map type_of HP)).
Qed.

Lemma type_of_children_dup a l :
  same (type_of (Node (a :: a :: l))) (type_of (Node (a :: l))) = true.
Proof. apply type_of_children_set; [discriminate|]. intros t. cbn. tauto. Qed.

(** the `__specialisations__` cache: issued numbers are below [next], a number stands for one key, and keys that are
    the same class have one number *)
Definition cache_inv (c : cache) : Prop :=
  (forall k id, In (k, id) (entries c) -> id < next c) /\
  (forall k k' id, In (k, id) (entries c) -> In (k', id) (entries c) -> k = k') /\
  (forall k1 id1 k2 id2, In (k1, id1) (entries c) -> In (k2, id2) (entries c) ->
                         key_same k1 k2 = true -> id1 = id2).

Lemma key_same_refl k : key_same k k = true.
Proof. apply same_refl. Qed.
Lemma key_same_sym k1 k2 : key_same k1 k2 = true -> key_same k2 k1 = true.
Proof. apply same_sym. Qed.
Lemma key_same_trans k1 k2 k3 : key_same k1 k2 = true -> key_same k2 k3 = true -> key_same k1 k3 = true.
Proof. apply same_trans. Qed.

Lemma inv_empty : cache_inv empty_cache.
Proof. repeat split; cbn; intros; tauto. Qed.

Lemma get_spec_cases c k :
  (exists k', lookup c k = Some (k', snd (get_spec c k)) /\ In (k', snd (get_spec c k)) (entries c)
              /\ key_same k' k = true /\ fst (get_spec c k) = c)
  \/ (lookup c k = None /\ (forall e, In e (entries c) -> key_same (fst e) k = false)
      /\ snd (get_spec c k) = next c
      /\ fst (get_spec c k) = {| next := S (next c); entries := (k, next c) :: entries c |}).
Proof.
  unfold get_spec. destruct (lookup c k) as [[k' id]|] eqn:E.
  - left. exists k'. unfold lookup in E. apply find_some in E as [Hin Hk]. cbn in *. auto.
  - right. unfold lookup in E. split; [reflexivity|]. split; [|auto].
    intros e He. exact (find_none _ _ E e He).
Qed.

Lemma inv_get c k : cache_inv c -> cache_inv (fst (get_spec c k)).
Proof.
  intros (I1 & I2 & I3).
  destruct (get_spec_cases c k) as [(k' & _ & _ & _ & ->)|(_ & Hnone & _ & ->)]; [repeat split; auto|].
  repeat split; cbn [next entries].
  - intros k0 id [E|Hin]; [inversion E; lia|]. apply I1 in Hin. lia.
  - intros k0 k0' id [E|Hin] [E'|Hin'].
    + congruence.
    + inversion E; subst. apply I1 in Hin'. lia.
    + inversion E'; subst. apply I1 in Hin. lia.
    + eauto.
  - intros k1 id1 k2 id2 [E|Hin] [E'|Hin'] Hs.
    + congruence.
    + inversion E; subst. apply key_same_sym in Hs. pose proof (Hnone _ Hin') as Hn. cbn [fst] in Hn. congruence.
    + inversion E'; subst. pose proof (Hnone _ Hin) as Hn. cbn [fst] in Hn. congruence.
    + eauto.
Qed.

Lemma in_evict c id e : In e (entries (evict c id)) <-> In e (entries c) /\ snd e <> id.
Proof.
  unfold evict. cbn [entries]. rewrite filter_In, negb_true_iff, Nat.eqb_neq. tauto.
Qed.

Lemma inv_evict c id : cache_inv c -> cache_inv (evict c id).
Proof.
  intros (I1 & I2 & I3). repeat split.
  - intros k i Hin. apply in_evict in Hin as [Hin _]. apply I1 in Hin. exact Hin.
  - intros k k' i H1 H2. apply in_evict in H1 as [H1 _]. apply in_evict in H2 as [H2 _]. eauto.
  - intros k1 i1 k2 i2 H1 H2. apply in_evict in H1 as [H1 _]. apply in_evict in H2 as [H2 _]. eauto.
Qed.

Lemma inv_step c o : cache_inv c -> cache_inv (cstep c o).
Proof. destruct o; cbn; auto using inv_get, inv_evict. Qed.

Lemma inv_run ops : forall c, cache_inv c -> cache_inv (crun c ops).
Proof. exact (fold_left_inv cstep cache_inv inv_step ops). Qed.

Lemma reachable_inv ops : cache_inv (crun empty_cache ops).
Proof. apply inv_run, inv_empty. Qed.

Lemma entry_persists ops : forall c k id,
  In (k, id) (entries c) -> (forall o, In o ops -> o <> Evict id) -> In (k, id) (entries (crun c ops)).
Proof.
  induction ops as [|o ops IH]; intros c k id Hin Hno; [exact Hin|].
  cbn. apply IH; [|intros o' Ho'; apply Hno; right; exact Ho'].
  destruct o as [k0|id0]; cbn.
  - destruct (get_spec_cases c k0) as [(k' & _ & _ & _ & ->)|(_ & _ & _ & ->)]; cbn; auto.
  - apply in_evict. split; [exact Hin|]. cbn. intros ->. apply (Hno (Evict id0)); cbn; auto.
Qed.

(** numbers are never reused *)
Lemma old_entries_step c o :
  next c <= next (cstep c o) /\
  forall k id, In (k, id) (entries (cstep c o)) -> id < next c -> In (k, id) (entries c).
Proof.
  destruct o as [k0|id0]; cbn.
  - destruct (get_spec_cases c k0) as [(k' & _ & _ & _ & ->)|(_ & _ & _ & ->)]; cbn; [auto|].
    split; [lia|]. intros k id [E|Hin] Hlt; [inversion E; lia|exact Hin].
  - split; [lia|]. intros k id Hin _. apply in_evict in Hin as [Hin _]. exact Hin.
Qed.

Lemma old_entries ops : forall c,
  next c <= next (crun c ops) /\
  forall k id, In (k, id) (entries (crun c ops)) -> id < next c -> In (k, id) (entries c).
Proof.
  intros c. unfold crun. apply fold_left_inv; [|auto].
  intros c' o [Hn Hold]. destruct (old_entries_step c' o) as [Hn' Hold']. split; [lia|].
  intros k id Hin Hlt. apply Hold; [|exact Hlt]. apply Hold'; [exact Hin|lia].
Qed.

Lemma get_spec_entry c k :
  exists k', In (k', snd (get_spec c k)) (entries (fst (get_spec c k))) /\ key_same k' k = true.
Proof.
  destruct (get_spec_cases c k) as [(k' & _ & Hin & Hk & ->)|(_ & _ & -> & ->)].
  - exists k'. split; assumption.
  - exists k. split; [left; reflexivity|apply key_same_refl].
Qed.

Lemma same_spec_same_class c k1 k2 ops :
  cache_inv c -> key_same k1 k2 = true ->
  (forall o, In o ops -> o <> Evict (snd (get_spec c k1))) ->
  snd (get_spec (crun (fst (get_spec c k1)) ops) k2) = snd (get_spec c k1).
Proof.
  intros Hinv Hs Hno. destruct (get_spec_entry c k1) as (k1' & Hin1 & Hk1).
  set (id1 := snd (get_spec c k1)) in *. set (c2 := crun (fst (get_spec c k1)) ops).
  assert (Hin2 : In (k1', id1) (entries c2)) by (apply entry_persists; assumption).
  assert (Hinv2 : cache_inv c2) by (apply inv_run, inv_get, Hinv).
  assert (Hk2 : key_same k1' k2 = true) by exact (key_same_trans _ _ _ Hk1 Hs).
  destruct (get_spec_cases c2 k2) as [(k' & _ & Hin & Hk & _)|(_ & Hnone & _ & _)].
  - destruct Hinv2 as (_ & _ & I3). apply (I3 _ _ _ _ Hin Hin2).
    exact (key_same_trans _ _ _ Hk (key_same_sym _ _ Hk2)).
  - specialize (Hnone _ Hin2). cbn [fst] in Hnone. rewrite Hk2 in Hnone. discriminate.
Qed.

Lemma same_class_same_spec c k1 k2 ops :
  cache_inv c ->
  snd (get_spec (crun (fst (get_spec c k1)) ops) k2) = snd (get_spec c k1) ->
  key_same k1 k2 = true.
Proof.
  intros Hinv Heq. destruct (get_spec_entry c k1) as (k1' & Hin1 & Hk1).
  set (id1 := snd (get_spec c k1)) in *. set (c1 := fst (get_spec c k1)) in *.
  assert (Hinv1 : cache_inv c1) by (apply inv_get; exact Hinv).
  assert (Hlt : id1 < next c1) by (destruct Hinv1 as (I1 & _); exact (I1 _ _ Hin1)).
  destruct (old_entries ops c1) as [Hn Hold].
  destruct (get_spec_cases (crun c1 ops) k2) as [(k' & _ & Hin & Hk & _)|(_ & _ & Hid & _)].
  - rewrite Heq in Hin. apply Hold in Hin; [|exact Hlt].
    destruct Hinv1 as (_ & I2 & _). rewrite (I2 _ _ _ Hin Hin1) in Hk.
    exact (key_same_trans _ _ _ (key_same_sym _ _ Hk1) Hk).
  - rewrite Heq in Hid. lia.
Qed.

Section Match.
  Variable sub : cls -> cls -> bool.
  Hypothesis sub_refl : forall a, sub a a = true.

  Local Notation issub := (issub sub).
  Local Notation isinstance := (isinstance sub).
  Local Notation except_catches := (except_catches sub).

  Lemma issub_spec_iff cs ci hs hi :
    issub (Spec cs ci) (Spec hs hi) = true <->
    same (Spec cs ci) (Spec hs hi) = true \/
    ((forall s, In s hs -> exists ch, In ch cs /\ issub ch s = true) /\
     (hi = true \/ forall ch, In ch cs -> exists s, In s hs /\ issub ch s = true)).
  Proof.
    cbn [ConcMatch.issub]. rewrite negb_existsb_negb, orb_true_iff, andb_true_iff, orb_true_iff,
      (forallb_existsb (fun s ch => issub ch s)), (forallb_existsb issub).
    reflexivity.
  Qed.

  (** `cls is subclass` is only a shortcut *)
  Lemma same_issub a b : same a b = true -> issub a b = true.
  Proof.
    intros H. destruct a, b; try (cbn in H; discriminate).
    - cbn in *. apply Nat.eqb_eq in H. subst. apply sub_refl.
    - reflexivity.
    - cbn [ConcMatch.issub]. rewrite H. reflexivity.
  Qed.

  Lemma issub_refl t : issub t t = true.
  Proof. apply same_issub, same_refl. Qed.

  Lemma issub_spec_rule cs ci hs hi :
    issub (Spec cs ci) (Spec hs hi) = true <->
    (forall s, In s hs -> exists ch, In ch cs /\ issub ch s = true) /\
    (hi = true \/ forall ch, In ch cs -> exists s, In s hs /\ issub ch s = true).
  Proof.
    rewrite issub_spec_iff. split; [|auto]. intros [Hs|H]; [|exact H].
    apply same_spec_iff in Hs as (_ & H1 & H2). split.
    - intros s Hs. destruct (H2 s Hs) as (x & Hx & Hxs). exists x. auto using same_issub.
    - right. intros ch Hch. destruct (H1 ch Hch) as (y & Hy & Hxy). exists y. auto using same_issub.
  Qed.

  Lemma isinstance_is_issubclass e h : isinstance e h = issub (type_of e) h.
  Proof.
    unfold ConcMatch.isinstance. destruct (same (type_of e) h) eqn:E; [|reflexivity].
    rewrite (same_issub _ _ E). reflexivity.
  Qed.

  (** a failure with children [children] against `Concurrent[hs]` / `Concurrent[hs, ...]` *)
  Theorem match_iff_spec children hs hi :
    children <> [] ->
    (isinstance (Node children) (Spec hs hi) = true <->
     (forall s, In s hs -> exists ch, In ch children /\ issub (type_of ch) s = true) /\
     (hi = true \/ forall ch, In ch children -> exists s, In s hs /\ issub (type_of ch) s = true)).
  Proof.
    intros Hne. rewrite isinstance_is_issubclass, (type_of_node _ Hne), issub_spec_rule.
    split; intros [Ha Hb]; split.
    - intros s Hs. destruct (Ha s Hs) as (t & Ht & Hm). apply in_map_iff in Ht as (ch & <- & Hch). eauto.
    - destruct Hb as [Hb|Hb]; [left; exact Hb|right]. intros ch Hch. apply Hb, in_map. exact Hch.
    - intros s Hs. destruct (Ha s Hs) as (ch & Hch & Hm). exists (type_of ch). auto using in_map.
    - destruct Hb as [Hb|Hb]; [left; exact Hb|right]. intros t Ht.
      apply in_map_iff in Ht as (ch & <- & Hch). auto.
  Qed.

  Lemma child_match_plain ch s : issub (type_of ch) (Plain s) = true <-> exists k i, ch = Leaf k i /\ sub k s = true.
  Proof.
    destruct ch as [k i|l]; cbn.
    - split; [eauto|]. intros (k' & i' & E & H). inversion E; subst. exact H.
    - destruct l; cbn; split; try discriminate; intros (k' & i' & E & _); discriminate.
  Qed.

  Lemma child_match_bare ch : issub (type_of ch) Bare = is_node ch.
  Proof. destruct ch as [k i|[|a l]]; reflexivity. Qed.

  Lemma child_match_spec ch hs hi :
    issub (type_of ch) (Spec hs hi) = true -> exists l, ch = Node l /\ l <> [].
  Proof.
    destruct ch as [k i|[|a l]]; cbn; try discriminate. intros _. eexists. split; [reflexivity|discriminate].
  Qed.

  (** bare `Concurrent` matches every failure *)
  Theorem bare_matches_all l : isinstance (Node l) Bare = true /\ except_catches (Node l) Bare = true.
  Proof. destruct l; split; reflexivity. Qed.

  Lemma bare_rejects_plain c i : isinstance (Leaf c i) Bare = false.
  Proof. reflexivity. Qed.

  (** with `...` only the listed types have to be found; additional children never hurt *)
  Theorem ellipsis_rule children hs :
    children <> [] ->
    (isinstance (Node children) (Spec hs true) = true <->
     forall s, In s hs -> exists ch, In ch children /\ issub (type_of ch) s = true).
  Proof.
    intros Hne. rewrite (match_iff_spec _ _ _ Hne). split; [tauto|]. intros H. split; auto.
  Qed.

  Lemma ellipsis_mono children l hs :
    children <> [] -> (forall ch, In ch children -> In ch l) ->
    isinstance (Node children) (Spec hs true) = true -> isinstance (Node l) (Spec hs true) = true.
  Proof.
    intros Hne Hsub H. rewrite (ellipsis_rule _ _ Hne) in H. apply ellipsis_rule.
    - intros ->. destruct children as [|c r]; [congruence|]. exact (Hsub c (or_introl eq_refl)).
    - intros s Hs. destruct (H s Hs) as (ch & Hch & Hm). exists ch. split; [exact (Hsub ch Hch)|exact Hm].
  Qed.

  Theorem ellipsis_allows_extras children extra hs :
    children <> [] ->
    isinstance (Node children) (Spec hs true) = true ->
    isinstance (Node (children ++ extra)) (Spec hs true) = true /\
    isinstance (Node (extra ++ children)) (Spec hs true) = true.
  Proof.
    intros Hne H. split; apply (ellipsis_mono children _ hs Hne); try exact H; intros ch Hch; apply in_or_app; auto.
  Qed.

  (** without `...` a child that matches no listed type prevents the match *)
  Theorem exclusive_rejects_extra children x hs :
    In x children ->
    (forall s, In s hs -> issub (type_of x) s = false) ->
    isinstance (Node children) (Spec hs false) = false.
  Proof.
    intros Hx Hno. apply not_true_is_false. intros H.
    assert (Hne : children <> []) by (destruct children; [destruct Hx|discriminate]).
    apply (match_iff_spec _ _ _ Hne) in H as [_ [H|H]]; [discriminate|].
    destruct (H x Hx) as (s & Hs & Hm). rewrite (Hno s Hs) in Hm. discriminate.
  Qed.

  Lemma issub_same_imp h : forall c c' h',
    same c c' = true -> same h h' = true -> issub c h = true -> issub c' h' = true.
  Proof.
    induction h as [s| |hs hi IH] using ty_ind'; intros r r' h' Sr Sh Hm;
      destruct h' as [| |hs' hi']; try (cbn in Sh; discriminate);
      destruct r as [| |cs ci]; try (cbn in Hm; discriminate);
      destruct r' as [| |cs' ci']; try (cbn in Sr; discriminate); try reflexivity.
    - cbn in *. apply Nat.eqb_eq in Sr, Sh. subst. exact Hm.
    - apply issub_spec_iff in Hm. apply issub_spec_iff. destruct Hm as [Hm|[Ha Hb]].
      + left. exact (same_trans _ _ _ (same_sym _ _ Sr) (same_trans _ _ _ Hm Sh)).
      + right. apply same_spec_iff in Sr as (_ & R1 & R2). apply same_spec_iff in Sh as (<- & S1 & S2). split.
        * intros s' Hs'. destruct (S2 s' Hs') as (s & Hs & Hss). destruct (Ha s Hs) as (ch & Hch & Hm).
          destruct (R1 ch Hch) as (ch' & Hch' & Hcc). exists ch'. split; [exact Hch'|]. exact (IH s Hs _ _ _ Hcc Hss Hm).
        * destruct Hb as [Hb|Hb]; [left; exact Hb|right]. intros ch' Hch'.
          destruct (R2 ch' Hch') as (ch & Hch & Hcc). destruct (Hb ch Hch) as (s & Hs & Hm).
          destruct (S1 s Hs) as (s' & Hs' & Hss). exists s'. split; [exact Hs'|]. exact (IH s Hs _ _ _ Hcc Hss Hm).
  Qed.

  Theorem issub_same c c' h h' :
    same c c' = true -> same h h' = true -> issub c h = issub c' h'.
  Proof.
    intros Hc Hh. apply eq_iff_eq_true. split; apply issub_same_imp; auto using same_sym.
  Qed.

  (** behind C17 [spec_order_irrelevant]: indistinguishable as raised failure, as handler and as nested member *)
  Theorem spec_set_only l1 l2 hs1 hs2 hi :
    l1 <> [] ->
    (forall t, In t (map type_of l1) <-> In t (map type_of l2)) ->
    (forall t, In t hs1 <-> In t hs2) ->
    isinstance (Node l1) (Spec hs1 hi) = isinstance (Node l2) (Spec hs2 hi)
    /\ (forall h, isinstance (Node l1) h = isinstance (Node l2) h)
    /\ (forall c, issub c (Spec hs1 hi) = issub c (Spec hs2 hi))
    /\ (forall c, issub c (type_of (Node l1)) = issub c (type_of (Node l2)))
    /\ key_same (map type_of l1, false) (map type_of l2, false) = true
    /\ key_same (hs1, hi) (hs2, hi) = true.
  Proof.
    intros Hne Hl Hh.
    assert (S1 : same (type_of (Node l1)) (type_of (Node l2)) = true) by (apply type_of_children_set; assumption).
    assert (S2 : same (Spec hs1 hi) (Spec hs2 hi) = true) by (apply same_of_set_eq; assumption).
    rewrite !isinstance_is_issubclass. split; [|split; [|split; [|split; [|split]]]].
    - apply issub_same; assumption.
    - intros h. rewrite !isinstance_is_issubclass. apply issub_same; auto using same_refl.
    - intros c. apply issub_same; auto using same_refl.
    - intros c. apply issub_same; auto using same_refl.
    - unfold key_same, key_ty. cbn [fst snd]. apply same_of_set_eq. exact Hl.
    - exact S2.
  Qed.

  (** the real except clause (known finding D10) is sound but not complete *)
  Lemma except_sound e h : except_catches e h = true -> isinstance e h = true.
  Proof.
    rewrite isinstance_is_issubclass. unfold ConcMatch.except_catches.
    destruct (type_of e) as [k| |cs ci] eqn:E, h as [s| |hs hi]; try discriminate; auto.
    apply same_issub.
  Qed.

  (** the two verdicts differ exactly on the signature of D10 *)
  Theorem except_disagrees_iff e h :
    except_catches e h <> isinstance e h <->
    exists cs ci hs hi, type_of e = Spec cs ci /\ h = Spec hs hi /\
                        same (type_of e) h = false /\ isinstance e h = true.
  Proof.
    rewrite isinstance_is_issubclass. unfold ConcMatch.except_catches.
    destruct (type_of e) as [k| |cs ci] eqn:E, h as [s| |hs hi];
      try (split; [intros H; exfalso; apply H; reflexivity
                  |intros (a & b & c & d & H1 & H2 & _); discriminate]).
    split.
    - intros H. exists cs, ci, hs, hi. split; [reflexivity|]. split; [reflexivity|].
      destruct (same (Spec cs ci) (Spec hs hi)) eqn:Es.
      + exfalso. apply H. symmetry. exact (same_issub _ _ Es).
      + split; [reflexivity|]. apply not_false_iff_true. intros Ei. apply H. symmetry. exact Ei.
    - intros (_ & _ & _ & _ & _ & _ & H3 & H4). rewrite H3, H4. discriminate.
  Qed.

  Lemma except_agrees_partial e h :
    (match h with Spec _ _ => same (type_of e) h = true | _ => True end) ->
    except_catches e h = isinstance e h.
  Proof.
    intros Hh. destruct (bool_dec (except_catches e h) (isinstance e h)) as [E|N]; [exact E|].
    apply except_disagrees_iff in N as (cs & ci & hs & hi & H1 & -> & H3 & _).
    rewrite Hh in H3. discriminate.
  Qed.

  (** D10: `except Concurrent[0, ...]` does not catch `Concurrent(0(), 1())` although isinstance says yes *)
  Theorem except_agrees_refuted :
    exists e h, isinstance e h = true /\ except_catches e h = false.
  Proof.
    exists (Node [Leaf 0 0; Leaf 1 1]), (getitem (Tuple [ITy (Plain 0); IEll])).
    split; [|reflexivity]. rewrite isinstance_is_issubclass.
    apply issub_spec_rule. split; [|left; reflexivity].
    intros s [<-|[]]. exists (Plain 0). cbn. auto.
  Qed.

  (** subclasses count; this needs transitivity of the class relation *)
  Hypothesis sub_trans : forall a b c, sub a b = true -> sub b c = true -> sub a c = true.

  (** [narrow r' r]: r' is r with plain classes replaced by subclasses *)
  Inductive narrow : ty -> ty -> Prop :=
  | NP a b : sub a b = true -> narrow (Plain a) (Plain b)
  | NB : narrow Bare Bare
  | NS l1 l2 i : Forall2 narrow l1 l2 -> narrow (Spec l1 i) (Spec l2 i).

  Theorem subclasses_count h : forall r r', narrow r' r -> issub r h = true -> issub r' h = true.
  Proof.
    induction h as [c| |hs hi IH] using ty_ind'; intros r r' Hn Hm;
      destruct Hn as [a b Hab| |l1 l2 i HF]; try (cbn in Hm; discriminate); try reflexivity.
    - cbn in *. exact (sub_trans _ _ _ Hab Hm).
    - apply Forall2_In in HF as [Fl Fr].
      apply issub_spec_rule in Hm as [Ha Hb]. apply issub_spec_rule. split.
      + intros s Hs. destruct (Ha s Hs) as (ch & Hch & Hm).
        destruct (Fr ch Hch) as (ch' & Hch' & Hcc). exists ch'. split; [exact Hch'|exact (IH s Hs ch ch' Hcc Hm)].
      + destruct Hb as [Hb|Hb]; [left; exact Hb|right]. intros ch' Hch'.
        destruct (Fl ch' Hch') as (ch & Hch & Hcc).
        destruct (Hb ch Hch) as (s & Hs & Hm). exists s. split; [exact Hs|exact (IH s Hs ch ch' Hcc Hm)].
  Qed.
End Match.

Definition leaf_exc (p : cls * nat) : exc := Leaf (fst p) (snd p).

Lemma flat_child_eq ch :
  (match ch with Leaf _ _ => [ch] | Node _ => flat_children ch end) = flat_children ch.
Proof. destruct ch; reflexivity. Qed.

Lemma flat_children_spec e : flat_children e = map leaf_exc (leaves e).
Proof.
  induction e using exc_ind'; [reflexivity|].
  cbn [flat_children leaves]. destruct (existsb is_node l) eqn:E; cbn [negb].
  - clear E. induction H as [|x l Hx Hl IH]; [reflexivity|].
    cbn [flat_map]. rewrite map_app, flat_child_eq, Hx, IH. reflexivity.
  - clear H. induction l as [|x l IH]; [reflexivity|]. cbn in E. apply orb_false_iff in E as [Ex El].
    destruct x; [|discriminate]. cbn. rewrite <- IH; auto.
Qed.

Lemma leaves_of_leaf_list ls : flat_map leaves (map leaf_exc ls) = ls.
Proof. induction ls as [|[c i] ls IH]; cbn; [reflexivity|]. f_equal. exact IH. Qed.

(** for every nesting depth the flattened failure has exactly the leaf exceptions of the tree as its children, in the
    same order *)
Theorem flatten_leaves_in_order l :
  flattened (Node l) = Node (map leaf_exc (leaves (Node l)))
  /\ leaves (flattened (Node l)) = leaves (Node l).
Proof.
  unfold flattened. rewrite flat_children_spec. split; [reflexivity|].
  cbn [leaves]. apply leaves_of_leaf_list.
Qed.

Lemma no_node_leaf_list ls : existsb is_node (map leaf_exc ls) = false.
Proof. induction ls; cbn; auto. Qed.

Theorem flattened_is_flat l ch :
  In ch (flat_children (Node l)) -> is_node ch = false.
Proof.
  rewrite flat_children_spec. intros H. apply in_map_iff in H as (p & <- & _). reflexivity.
Qed.

Theorem flattened_idempotent e : flattened (flattened e) = flattened e.
Proof.
  destruct e as [c i|l]; [reflexivity|].
  destruct (flatten_leaves_in_order l) as [-> _]. unfold flattened. cbn [flat_children].
  rewrite no_node_leaf_list. reflexivity.
Qed.

Theorem flattened_self e : flattened_is_self e = true -> flattened e = e.
Proof.
  destruct e as [c i|l]; [reflexivity|]. cbn. intros H. rewrite H. reflexivity.
Qed.

Theorem flattened_type l :
  type_of (flattened (Node l)) = new_type (map leaf_exc (leaves (Node l))).
Proof. destruct (flatten_leaves_in_order l) as [-> _]. apply type_of_is_getitem. Qed.

(** the concrete hierarchy used by the correspondence check is a preorder *)
Lemma hier_sub_refl a : hier_sub a a = true.
Proof. unfold hier_sub. rewrite Nat.eqb_refl. reflexivity. Qed.

Lemma hier_sub_big a b : 6 <= a -> hier_sub a b = Nat.eqb a b.
Proof.
  intros H. unfold hier_sub.
  do 6 (destruct a as [|a]; [lia|]). cbn [hier_parent]. apply orb_false_r.
Qed.

(** a parent's number is one less, so whatever a class derives from has a number that is not larger *)
Lemma hier_parent_lt a p : hier_parent a = Some p -> p < a.
Proof. destruct a as [|[|[|[|[|a]]]]]; cbn; intros E; try discriminate E; injection E as <-; apply le_n. Qed.

Lemma hier_sub_le a b : hier_sub a b = true -> b <= a.
Proof.
  unfold hier_sub. rewrite orb_true_iff, Nat.eqb_eq. intros [<-|H]; [apply le_n|].
  destruct (hier_parent a) as [p|] eqn:P; [|discriminate]. apply hier_parent_lt, Nat.lt_le_incl in P.
  apply orb_true_iff in H as [H|H]; [apply Nat.eqb_eq in H; subst b; exact P|].
  destruct (hier_parent p) as [q|] eqn:Q; [|discriminate]. apply hier_parent_lt, Nat.lt_le_incl in Q.
  apply Nat.eqb_eq in H. subst b. exact (Nat.le_trans _ _ _ Q P).
Qed.

(** below 6 the relation is a table, and tables are checked by evaluation *)
Lemma hier_table_trans :
  forallb (fun a => forallb (fun b => forallb (fun c =>
    implb (hier_sub a b && hier_sub b c) (hier_sub a c)) (seq 0 6)) (seq 0 6)) (seq 0 6) = true.
Proof. reflexivity. Qed.

Lemma hier_sub_trans a b c : hier_sub a b = true -> hier_sub b c = true -> hier_sub a c = true.
Proof.
  intros H1 H2. destruct (Nat.le_gt_cases 6 a) as [Ha|Ha].
  - rewrite hier_sub_big in H1 by exact Ha. apply Nat.eqb_eq in H1. subst. exact H2.
  - pose proof (hier_sub_le a b H1) as Hb. pose proof (hier_sub_le b c H2) as Hc.
    assert (In6 : forall n, n <= a -> In n (seq 0 6)) by (intros n Hn; apply in_seq; lia).
    pose proof hier_table_trans as T. rewrite forallb_forall in T. specialize (T a (In6 a (le_n a))).
    rewrite forallb_forall in T. specialize (T b (In6 b Hb)).
    rewrite forallb_forall in T. specialize (T c (In6 c (Nat.le_trans _ _ _ Hc Hb))).
    rewrite H1, H2 in T. exact T.
Qed.

(** an observation: `issubclass` between classes of the family is NOT transitive once a class with
    `...` stands in the middle (raised failures never have such a class, handlers are only ever on the
    right-hand side, so no handler verdict is affected):
    Concurrent[A, D] <= Concurrent[A, ...] <= Concurrent[A]  but not  Concurrent[A, D] <= Concurrent[A] *)
Lemma issub_transitive_refuted :
  exists a b c, issub hier_sub a b = true /\ issub hier_sub b c = true /\ issub hier_sub a c = false.
Proof.
  exists (Spec [Plain 0; Plain 3] false), (Spec [Plain 0] true), (Spec [Plain 0] false).
  vm_compute. auto.
Qed.
