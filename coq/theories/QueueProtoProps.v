(* Invariants of QueueProto over ALL reachable states and the C10 theorems.  The lemmas before [coupled]
   are about the read mutex alone: what one step of LockProto does to the fields the queue looks at. *)
From Coq Require Import List Arith Lia Sorting.Sorted.
From Usim Require Import ListFacts LockProto LockProtoProps QueueProto.
Import ListNotations.

Lemma step_frame m t m' : step m t = Some m' ->
  forall b, b <> actor t -> ph m' b = ph m b /\ tick m' b = tick m b.
Proof.
  intros H b Nb. destruct t as [a|a|a|a]; cbn [actor] in Nb.
  - apply step_request in H as [(_ & _ & ->)|[(_ & _ & ->)|(n & _ & _ & ->)]]; cbn;
      rewrite ?upd_other by exact Nb; auto.
  - apply step_wake in H as (_ & _ & ->). cbn. now rewrite upd_other by exact Nb.
  - apply step_foreign in H as (_ & ->). cbn. rewrite upd_other by exact Nb.
    destruct (unsubscribe_keeps a m) as (P & T & _).
    destruct (is_owner _ a); rewrite ?ph_release, ?tick_release, P, T; auto.
  - apply step_exit in H as (n & _ & ->). cbn.
    destruct (Nat.eqb _ 0); rewrite ?ph_release, ?tick_release; cbn; now rewrite upd_other by exact Nb.
Qed.

Lemma grants_mono m t m' : step m t = Some m' -> incl (grants m) (grants m').
Proof.
  intros H. destruct t as [a|a|a|a].
  - apply step_request in H as [(_ & _ & ->)|[(_ & _ & ->)|(n & _ & _ & ->)]]; cbn;
      auto using incl_refl, incl_appl.
  - apply step_wake in H as (_ & _ & ->). cbn. auto using incl_refl, incl_appl.
  - apply step_foreign in H as (_ & ->). cbn.
    destruct (is_owner _ a); rewrite ?grants_release, grants_unsubscribe; apply incl_refl.
  - apply step_exit in H as (n & _ & ->). cbn. destruct (Nat.eqb _ 0); rewrite ?grants_release; apply incl_refl.
Qed.

Lemma request_effect m r m' : inv m -> ph m r = Idle -> step m (Request r) = Some m' ->
  (ph m' r = Inside 1 /\ tick m' r = ntick m /\ forall a n, ph m a <> Inside n) \/ ph m' r = Waiting.
Proof.
  intros I Pr H. apply step_request in H as [(_ & O & ->)|[(_ & _ & ->)|(n & Pn & _)]]; [| |congruence];
    cbn; rewrite !upd_same; auto.
  left. repeat split; auto. apply (inv_free _ I O).
Qed.

Lemma wake_effect m r m' : step m (DeliverWake r) = Some m' ->
  ph m r = Waiting /\ In r (woken m) /\ ph m' r = Inside 1 /\ tick m' r = tick m r.
Proof. intros H. apply step_wake in H as (P & M & ->). cbn. now rewrite upd_same. Qed.

Lemma foreign_effect m r m' : step m (DeliverForeign r) = Some m' ->
  ph m r = Waiting /\ ph m' r = Idle.
Proof. intros H. apply step_foreign in H as (P & ->). cbn. now rewrite upd_same. Qed.

Lemma exit_effect m r : ph m r = Inside 1 ->
  exists m', step m (Exit r) = Some m' /\ ph m' r = Idle.
Proof.
  intros Pr. cbn. rewrite Pr. eexists. split; [reflexivity|].
  destruct (Nat.eqb _ 0); rewrite ?ph_release; cbn; apply upd_same.
Qed.

Lemma exit_keeps m r m' : step m (Exit r) = Some m' -> tick m' = tick m /\ ntick m' = ntick m.
Proof.
  intros H. apply step_exit in H as (n & _ & ->). cbn.
  destruct (Nat.eqb _ 0); now rewrite ?tick_release, ?ntick_release.
Qed.

Lemma is_inside_spec m r : is_inside m r = true <-> exists n, ph m r = Inside n.
Proof.
  unfold is_inside. destruct (ph m r) as [| |n]; split; try discriminate; try (intros [k E]; discriminate).
  - intros _. now exists n.
  - reflexivity.
Qed.

Definition coupled (q : qst) (r : aid) : Prop :=
  match rph q r with
  | RIdle => ph (mutex q) r = Idle
  | RWaitMutex => ph (mutex q) r = Waiting
  | RPostpone | RWaitItem => ph (mutex q) r = Inside 1
  end.

Record qinv (q : qst) : Prop := {
  qL : inv (mutex q);
  qC : forall r, coupled q r;
  qN1 : forall r, rph q r = RWaitItem ->
        (nwait q = [r] /\ nwoken q = [] /\ buf q = [] /\ closed q = false) \/
        (nwait q = [] /\ nwoken q = [r] /\ (buf q <> [] \/ closed q = true));
  qN2 : (forall r, rph q r <> RWaitItem) -> nwait q = [] /\ nwoken q = [];
  qP : forall r, rph q r = RPostpone -> buf q <> [];
  qA : accepted q = map snd (delivered q) ++ buf q;
  qS1 : StronglySorted lt (served q);
  qS2 : incl (served q) (grants (mutex q));
  qS3 : forall r n, ph (mutex q) r = Inside n -> ~ In (tick (mutex q) r) (served q)
}.

(* r holds the read mutex and is not subscribed to the notification; the rest of the invariant holds
   around it *)
Record holding (r : aid) (q : qst) : Prop := {
  hL : inv (mutex q);
  hI : ph (mutex q) r = Inside 1;
  hC : forall r', r' <> r -> coupled q r';
  hN : nwait q = [] /\ nwoken q = [];
  hA : accepted q = map snd (delivered q) ++ buf q;
  hS1 : StronglySorted lt (served q);
  hS2 : incl (served q) (grants (mutex q))
}.

Lemma qinv_init : qinv qinit.
Proof.
  constructor; cbn; auto using inv_init; try constructor; try discriminate; try (intros ? []).
Qed.

Lemma past_is_holder q r r0 : inv (mutex q) -> ph (mutex q) r = Inside 1 -> coupled q r0 -> r0 <> r ->
  rph q r0 <> RPostpone /\ rph q r0 <> RWaitItem.
Proof.
  intros I P C N. unfold coupled in C.
  split; intros E; rewrite E in C; apply N; eapply inside_unique; eauto.
Qed.

Lemma past_upd r q p r0 x : holding r q -> x = RPostpone \/ x = RWaitItem ->
  upd (rph q) r p r0 = x -> r0 = r /\ p = x.
Proof.
  intros H X E. unfold upd in E. destruct (Nat.eqb_spec r0 r) as [->|N]; [auto|].
  destruct (past_is_holder _ _ _ (hL _ _ H) (hI _ _ H) (hC _ _ H _ N) N). destruct X; congruence.
Qed.

Lemma leave_inv r q o q' o' : holding r q -> leave r q o = Some (q', o') -> qinv q' /\ o' = o.
Proof.
  intros H E. unfold leave in E. destruct (exit_effect _ _ (hI _ _ H)) as (m' & X & Pm').
  rewrite X in E. injection E as <- <-. split; auto.
  pose proof (step_frame _ _ _ X) as F. cbn [actor] in F.
  constructor; cbn.
  - eapply inv_step; eauto using hL.
  - intros r0. unfold coupled. cbn. unfold upd. destruct (Nat.eqb_spec r0 r) as [->|N].
    + auto.
    + destruct (F _ N) as [-> _]. apply (hC _ _ H _ N).
  - intros r0 E. apply (past_upd _ _ _ _ _ H) in E as [_ [=]]; auto.
  - intros _. apply (hN _ _ H).
  - intros r0 E. apply (past_upd _ _ _ _ _ H) in E as [_ [=]]; auto.
  - apply (hA _ _ H).
  - apply (hS1 _ _ H).
  - eapply incl_tran; [apply (hS2 _ _ H) | eapply grants_mono; eauto].
  - intros r0 n P0. exfalso. destruct (Nat.eq_dec r0 r) as [->|N]; [congruence|].
    destruct (F _ N) as [E _]. rewrite E in P0. apply N. eapply inside_unique; eauto using hL, hI.
Qed.

Lemma leave_some r q o : holding r q -> exists q', leave r q o = Some (q', o).
Proof.
  intros H. unfold leave. destruct (exit_effect _ _ (hI _ _ H)) as (m' & X & _). rewrite X. eauto.
Qed.

Lemma after_mutex_inv r q q' o : holding r q -> ~ In (tick (mutex q) r) (served q) ->
  after_mutex r q = Some (q', o) -> qinv q'.
Proof.
  intros H Fr E. unfold after_mutex in E. destruct (hN _ _ H) as [W1 W2].
  destruct (buf q) as [|x b] eqn:B.
  - destruct (closed q) eqn:Cl.
    + eapply leave_inv; eauto.
    + injection E as <- <-. rewrite W1. cbn.
      constructor; cbn; eauto using hL, hA, hS1, hS2.
      * intros r0. unfold coupled. cbn. unfold upd. destruct (Nat.eqb_spec r0 r) as [->|N].
        -- apply (hI _ _ H).
        -- apply (hC _ _ H _ N).
      * intros r0 E. apply (past_upd _ _ _ _ _ H) in E as [-> _]; auto.
      * intros X. exfalso. apply (X r). apply upd_same.
      * intros r0 E. apply (past_upd _ _ _ _ _ H) in E as [_ [=]]; auto.
      * rewrite (hA _ _ H), B. auto.
      * intros r0 n P0. assert (r0 = r) as -> by (eapply inside_unique; eauto using hL, hI). auto.
  - injection E as <- <-.
    constructor; cbn; eauto using hL, hS1, hS2.
    * intros r0. unfold coupled. cbn. unfold upd. destruct (Nat.eqb_spec r0 r) as [->|N].
      -- apply (hI _ _ H).
      -- apply (hC _ _ H _ N).
    * intros r0 E. apply (past_upd _ _ _ _ _ H) in E as [_ [=]]; auto.
    * intros r0 _. rewrite ?B. discriminate.
    * rewrite (hA _ _ H), ?B. auto.
    * intros r0 n P0. assert (r0 = r) as -> by (eapply inside_unique; eauto using hL, hI). auto.
Qed.

Lemma holding_postpone q r : qinv q -> rph q r = RPostpone -> holding r q.
Proof.
  intros I E. pose proof (qC _ I r) as C. unfold coupled in C. rewrite E in C.
  constructor; auto using qL, qA, qS1, qS2.
  - intros r' _. apply (qC _ I).
  - apply (qN2 _ I). intros r0. destruct (Nat.eq_dec r0 r) as [->|N]; [congruence|].
    apply (past_is_holder _ _ _ (qL _ I) C (qC _ I r0) N).
Qed.

Lemma holding_unsub q r : qinv q -> rph q r = RWaitItem -> holding r (n_unsubscribe r q).
Proof.
  intros I E. pose proof (qC _ I r) as C. unfold coupled in C. rewrite E in C.
  assert (W : nwait (n_unsubscribe r q) = [] /\ nwoken (n_unsubscribe r q) = []).
  { unfold n_unsubscribe. destruct (qN1 _ I _ E) as [(W1 & W2 & _)|(W1 & W2 & _)]; rewrite W1, W2; cbn;
      rewrite ?Nat.eqb_refl; cbn; rewrite ?Nat.eqb_refl; auto. }
  unfold n_unsubscribe in *. destruct (mem r (nwoken q)); cbn in *;
    (constructor; cbn; auto using qL, qA, qS1, qS2; intros r' _; apply (qC _ I)).
Qed.

Lemma holder_fresh q r : qinv q -> rph q r = RPostpone \/ rph q r = RWaitItem ->
  ~ In (tick (mutex q) r) (served q).
Proof.
  intros I E. pose proof (qC _ I r) as C. unfold coupled in C.
  destruct E as [E|E]; rewrite E in C; eapply qS3; eauto.
Qed.

Lemma unsub_fresh q r : qinv q -> rph q r = RWaitItem ->
  ~ In (tick (mutex (n_unsubscribe r q)) r) (served (n_unsubscribe r q)).
Proof.
  intros I E. unfold n_unsubscribe. destruct (mem r (nwoken q)); exact (holder_fresh _ r I (or_intror E)).
Qed.

Lemma pop_holding r q x q' : holding r q -> ~ In (tick (mutex q) r) (served q) ->
  pop r q = Some (x, q') -> holding r q' /\ buf q = x :: buf q' /\ closed q' = closed q.
Proof.
  intros H Fr E. unfold pop in E. destruct (buf q) as [|y b] eqn:B; [discriminate|].
  injection E as <- <-. cbn. split; [|auto]. constructor; cbn.
  - apply (hL _ _ H).
  - apply (hI _ _ H).
  - intros r' N. apply (hC _ _ H _ N).
  - apply (hN _ _ H).
  - rewrite (hA _ _ H), B, map_app, <- app_assoc. reflexivity.
  - destruct (inside_last_grant _ (hL _ _ H) _ _ (hI _ _ H)) as [g G].
    pose proof (iD1 _ (hL _ _ H)) as S. rewrite G in S. apply StronglySorted_app in S as (_ & _ & S).
    apply StronglySorted_app. repeat split; [apply (hS1 _ _ H) | repeat constructor |].
    intros a b0 Ha [<-|[]]. apply S; [|now left].
    pose proof (hS2 _ _ H _ Ha) as Hg. rewrite G in Hg. apply in_app_or in Hg as [Hg|[<-|[]]]; auto.
    contradiction.
  - intros a Ha. apply in_app_or in Ha as [Ha|[<-|[]]]; [apply (hS2 _ _ H); auto|].
    destruct (inside_last_grant _ (hL _ _ H) _ _ (hI _ _ H)) as [g G]. rewrite G.
    apply in_or_app. right. now left.
Qed.

Lemma holding_new_mutex q r m' : qinv q -> inv m' ->
  ph m' r = Inside 1 ->
  (forall b, b <> r -> ph m' b = ph (mutex q) b /\ tick m' b = tick (mutex q) b) ->
  incl (grants (mutex q)) (grants m') ->
  (forall a n, ph (mutex q) a <> Inside n) ->
  rph q r <> RWaitItem ->
  holding r (set_mutex q m').
Proof.
  intros I I' P F G NI Nr. constructor; cbn; auto using qA, qS1.
  - intros r' N. pose proof (qC _ I r') as C. unfold coupled in *. cbn.
    destruct (F _ N) as [-> _]. exact C.
  - apply (qN2 _ I). intros r0 E. pose proof (qC _ I r0) as C. unfold coupled in C. rewrite E in C.
    eapply NI; eauto.
  - eapply incl_tran; [apply (qS2 _ I) | auto].
Qed.

Lemma nobody_inside_when_designated m r : inv m -> In r (woken m) -> forall a n, ph m a <> Inside n.
Proof.
  intros I W a n Ha. destruct (woken_shape _ I _ W) as (O & P & _).
  destruct (inside_owner _ I _ _ Ha) as (O' & _). congruence.
Qed.

(* a step of the read mutex whose actor [r] is not inside afterwards: [r] waits for the mutex or has left *)
Lemma qinv_outside q r m' p : qinv q -> inv m' ->
  (forall b, b <> r -> ph m' b = ph (mutex q) b /\ tick m' b = tick (mutex q) b) ->
  incl (grants (mutex q)) (grants m') ->
  rph q r <> RWaitItem ->
  (p = RIdle /\ ph m' r = Idle \/ p = RWaitMutex /\ ph m' r = Waiting) ->
  qinv (set_rph (set_mutex q m') r p).
Proof.
  intros I I' F G N2 Hp.
  assert (Np : p <> RPostpone /\ p <> RWaitItem) by (destruct Hp as [[-> _]|[-> _]]; split; discriminate).
  constructor; cbn; auto using qA, qS1.
  - intros r0. unfold coupled. cbn. unfold upd. destruct (Nat.eqb_spec r0 r) as [->|N].
    + destruct Hp as [[-> Hp]|[-> Hp]]; exact Hp.
    + destruct (F _ N) as [-> _]. apply (qC _ I).
  - intros r0. unfold upd. destruct (Nat.eqb_spec r0 r) as [->|N]; [intros E; now apply Np in E | apply (qN1 _ I)].
  - intros Y. apply (qN2 _ I). intros r0. destruct (Nat.eq_dec r0 r) as [->|N]; [exact N2|].
    specialize (Y r0). now rewrite upd_other in Y by exact N.
  - intros r0. unfold upd. destruct (Nat.eqb_spec r0 r) as [->|N]; [intros E; now apply Np in E | apply (qP _ I)].
  - eapply incl_tran; [apply (qS2 _ I) | exact G].
  - intros r0 n P0. destruct (Nat.eq_dec r0 r) as [->|N].
    + destruct Hp as [[_ Hp]|[_ Hp]]; congruence.
    + destruct (F _ N) as [E1 E2]. rewrite E1 in P0. rewrite E2. eapply qS3; eauto.
Qed.

Lemma qinv_step q t q' o : qinv q -> qstep q t = Some (q', o) -> qinv q'.
Proof.
  intros I H. destruct t as [x| |r|r|r|r|r]; unfold qstep in H.
  - (* Put *)
    destruct (closed q) eqn:Cl; [injection H as <- <-; auto|].
    destruct (nwait q) as [|r w] eqn:W; injection H as <- <-.
    + constructor; cbn; eauto using qL, qS1, qS2, qS3.
      * apply (qC _ I).
      * intros r0 E. destruct (qN1 _ I _ E) as [(W1 & _)|(W1 & W2 & _)]; [congruence|].
        right. repeat split; auto. left. destruct (buf q); discriminate.
      * intros X. destruct (qN2 _ I X). auto.
      * intros r0 _. destruct (buf q); discriminate.
      * rewrite (qA _ I), app_assoc. reflexivity.
    + constructor; cbn; eauto using qL, qS1, qS2, qS3.
      * apply (qC _ I).
      * intros r0 E. destruct (qN1 _ I _ E) as [(W1 & W2 & _)|(W1 & _)]; [|congruence].
        rewrite W in W1. injection W1 as -> ->. rewrite W2. right. repeat split; auto.
        left. destruct (buf q); discriminate.
      * intros X. destruct (qN2 _ I X). congruence.
      * intros r0 _. destruct (buf q); discriminate.
      * rewrite (qA _ I), app_assoc. reflexivity.
  - (* Close *)
    destruct (closed q) eqn:Cl; injection H as <- <-; auto.
    constructor; cbn; eauto using qL, qA, qS1, qS2, qS3, qP.
    + apply (qC _ I).
    + intros r0 E. right. destruct (qN1 _ I _ E) as [(W1 & W2 & _)|(W1 & W2 & _)]; rewrite W1, W2; auto.
    + intros X. destruct (qN2 _ I X) as [-> ->]. auto.
  - (* Get *)
    destruct (rph q r) eqn:E; try discriminate.
    pose proof (qC _ I r) as C. unfold coupled in C. rewrite E in C.
    destruct (step (mutex q) (Request r)) as [m'|] eqn:X; [|discriminate].
    pose proof (inv_step _ _ _ (qL _ I) X) as I'.
    pose proof (step_frame _ _ _ X) as F. cbn [actor] in F.
    destruct (request_effect _ _ _ (qL _ I) C X) as [(P & T & NI)|P].
    + unfold is_inside in H. rewrite P in H.
      eapply after_mutex_inv; [| |exact H].
      * eapply holding_new_mutex; eauto using grants_mono. congruence.
      * cbn. rewrite T. intros G. apply (qS2 _ I) in G. apply (iD4 _ (qL _ I)) in G. lia.
    + unfold is_inside in H. rewrite P in H. injection H as <- <-.
      apply qinv_outside; [exact I | exact I' | exact F | exact (grants_mono _ _ _ X) | congruence | now right].
  - (* MutexWake *)
    destruct (rph q r) eqn:E; try discriminate.
    destruct (step (mutex q) (DeliverWake r)) as [m'|] eqn:X; [|discriminate].
    pose proof (inv_step _ _ _ (qL _ I) X) as I'.
    pose proof (step_frame _ _ _ X) as F. cbn [actor] in F.
    destruct (wake_effect _ _ _ X) as (P & W & P' & T).
    eapply after_mutex_inv; [| |exact H].
    + eapply holding_new_mutex; eauto using grants_mono, nobody_inside_when_designated, qL. congruence.
    + cbn. rewrite T. intros G. apply (qS2 _ I) in G.
      assert (Hq : In r (pendq (mutex q))) by (unfold pendq; apply in_or_app; auto).
      pose proof (iD2 _ (qL _ I) _ _ G Hq). lia.
  - (* PostponeDone *)
    destruct (rph q r) eqn:E; try discriminate.
    pose proof (holding_postpone _ _ I E) as Hd.
    pose proof (holder_fresh _ r I (or_introl E)) as Fr.
    destruct (pop r q) as [[x q1]|] eqn:Pp.
    + destruct (pop_holding _ _ _ _ Hd Fr Pp) as (Hd1 & _). eapply leave_inv; eauto.
    + eapply leave_inv; eauto.
  - (* ItemWake *)
    destruct (rph q r) eqn:E; try discriminate.
    destruct (mem r (nwoken q)) eqn:M; [|discriminate].
    pose proof (holding_unsub _ _ I E) as Hd. pose proof (unsub_fresh _ _ I E) as Fr.
    destruct (pop r (n_unsubscribe r q)) as [[x q1]|] eqn:Pp.
    + destruct (pop_holding _ _ _ _ Hd Fr Pp) as (Hd1 & _). eapply leave_inv; eauto.
    + destruct (closed (n_unsubscribe r q)); eapply leave_inv; eauto.
  - (* Foreign *)
    destruct (rph q r) eqn:E; try discriminate.
    + destruct (step (mutex q) (DeliverForeign r)) as [m'|] eqn:X; [|discriminate].
      injection H as <- <-. destruct (foreign_effect _ _ _ X) as (P & P').
      apply qinv_outside; [exact I | exact (inv_step _ _ _ (qL _ I) X) | exact (step_frame _ _ _ X) |
                           exact (grants_mono _ _ _ X) | congruence | now left].
    + eapply leave_inv; eauto using holding_postpone.
    + eapply leave_inv; eauto using holding_unsub.
Qed.

Theorem qreachable_inv q : qreachable q -> qinv q.
Proof. induction 1; eauto using qinv_init, qinv_step. Qed.

(* nothing lost, nothing duplicated, order kept - at all times, whatever happened (including any
   foreign signal in any phase of any receiver): the items stored by put are, in put order, exactly
   the items received so far followed by the buffer *)
Theorem exactly_once q : qreachable q -> accepted q = map snd (delivered q) ++ buf q.
Proof. intros R. apply qreachable_inv in R. apply (qA _ R). Qed.

Theorem order q : qreachable q ->
  map snd (delivered q) = firstn (length (delivered q)) (accepted q).
Proof.
  intros R. rewrite (exactly_once _ R). rewrite <- (map_length snd (delivered q)).
  rewrite firstn_app, firstn_all, Nat.sub_diag. cbn. now rewrite app_nil_r.
Qed.

Definition receiver_of (t : qtr) : option aid :=
  match t with
  | Put _ | Close => None
  | Get r | MutexWake r | PostponeDone r | ItemWake r | Foreign r => Some r
  end.

(* the result of [leave], [pop] and [n_unsubscribe] written out, so that their fields compute *)
Lemma leave_shape r q o q' o' : leave r q o = Some (q', o') ->
  exists m, step (mutex q) (Exit r) = Some m /\ q' = set_rph (set_mutex q m) r RIdle /\ o' = o.
Proof.
  unfold leave. destruct (step (mutex q) (Exit r)) as [m|]; [|discriminate]. intros [= <- <-]. eauto.
Qed.

Lemma pop_shape r q x q' : pop r q = Some (x, q') -> exists b, buf q = x :: b /\
  q' = qmk b (closed q) (mutex q) (nwait q) (nwoken q) (rph q) (accepted q)
           (delivered q ++ [(r, x)]) (served q ++ [tick (mutex q) r]).
Proof. unfold pop. destruct (buf q) as [|y b]; [discriminate|]. intros [= <- <-]. eauto. Qed.

Lemma n_unsub_shape r q : exists w k,
  n_unsubscribe r q = qmk (buf q) (closed q) (mutex q) w k (rph q) (accepted q) (delivered q) (served q).
Proof. unfold n_unsubscribe. destruct (mem r (nwoken q)); eauto. Qed.

Lemma after_mutex_fields r q q' o : after_mutex r q = Some (q', o) ->
  buf q' = buf q /\ closed q' = closed q /\ accepted q' = accepted q /\ delivered q' = delivered q /\
  served q' = served q /\
  ((o = ONone /\ (rph q' r = RPostpone /\ buf q <> [] \/ rph q' r = RWaitItem /\ buf q = [] /\ closed q = false)) \/
   (o = OClosed /\ buf q = [] /\ closed q = true /\ rph q' r = RIdle)).
Proof.
  unfold after_mutex. destruct (buf q) eqn:B.
  - destruct (closed q) eqn:Cl.
    + intros E. apply leave_shape in E as (m & _ & -> & ->). cbn. rewrite upd_same. auto 10.
    + intros E. injection E as <- <-. cbn. rewrite upd_same. repeat split; auto.
      left. split; auto.
  - intros E. injection E as <- <-. cbn. rewrite upd_same. repeat split; auto.
    left. split; auto. left. split; auto. discriminate.
Qed.

(* every step, classified by what the caller sees *)
Theorem step_spec q t q' o : qreachable q -> qstep q t = Some (q', o) ->
  match o with
  | OGot x =>          (* a receive returned x: it was the head of the buffer, and it is logged *)
      exists r, receiver_of t = Some r /\ buf q = x :: buf q' /\
                delivered q' = delivered q ++ [(r, x)] /\
                served q' = served q ++ [tick (mutex q) r] /\
                accepted q' = accepted q /\ closed q' = closed q
  | OClosed =>         (* StreamClosed: a put on a closed queue, or a receive on a closed AND empty one *)
      closed q = true /\ closed q' = true /\ buf q' = buf q /\ accepted q' = accepted q /\
      delivered q' = delivered q /\ (receiver_of t <> None -> buf q = [])
  | ORaised =>         (* a foreign signal at a receiver: it leaves, nothing else changes *)
      exists r, t = Foreign r /\ rph q' r = RIdle /\ buf q' = buf q /\ closed q' = closed q /\
                accepted q' = accepted q /\ delivered q' = delivered q
  | ONone =>
      delivered q' = delivered q /\
      match t with
      | Put x => closed q = false /\ buf q' = buf q ++ [x] /\ accepted q' = accepted q ++ [x] /\
                 closed q' = false
      | Close => closed q' = true /\ buf q' = buf q /\ accepted q' = accepted q
      | _ => buf q' = buf q /\ closed q' = closed q /\ accepted q' = accepted q
      end
  | OCrash => False    (* IndexError / failed assert never happen *)
  end.
Proof.
  intros R H. apply qreachable_inv in R. destruct t as [x| |r|r|r|r|r]; unfold qstep in H.
  - destruct (closed q) eqn:Cl; [injection H as <- <-; repeat split; auto; intros X; now elim X|].
    destruct (nwait q); injection H as <- <-; cbn; auto.
  - destruct (closed q) eqn:Cl; injection H as <- <-; cbn; auto.
  - destruct (rph q r) eqn:E; try discriminate.
    destruct (step (mutex q) (Request r)) as [m'|]; [|discriminate].
    destruct (is_inside m' r).
    + apply after_mutex_fields in H as (E1 & E2 & E3 & E4 & E5 & [(-> & _)|(-> & B & Cl & _)]); cbn in *.
      * auto.
      * rewrite E2. repeat split; auto.
    + injection H as <- <-. cbn. auto.
  - destruct (rph q r) eqn:E; try discriminate.
    destruct (step (mutex q) (DeliverWake r)) as [m'|]; [|discriminate].
    apply after_mutex_fields in H as (E1 & E2 & E3 & E4 & E5 & [(-> & _)|(-> & B & Cl & _)]); cbn in *.
    * auto.
    * rewrite E2. repeat split; auto.
  - destruct (rph q r) eqn:E; try discriminate.
    destruct (pop r q) as [[x q1]|] eqn:Pp.
    + apply pop_shape in Pp as (b & B & ->). apply leave_shape in H as (m & _ & -> & ->).
      exists r. cbn. auto 10.
    + exfalso. unfold pop in Pp. destruct (buf q) eqn:B; [|discriminate]. eapply qP; eauto.
  - destruct (rph q r) eqn:E; try discriminate.
    destruct (mem r (nwoken q)) eqn:M; [|discriminate].
    destruct (n_unsub_shape r q) as (w & k & U). rewrite U in H.
    destruct (pop r _) as [[x q1]|] eqn:Pp.
    + apply pop_shape in Pp as (b & B & ->). apply leave_shape in H as (m & _ & -> & ->).
      exists r. cbn in *. auto 10.
    + unfold pop in Pp. cbn in Pp, H. destruct (buf q) eqn:B; [|discriminate].
      assert (Cl : closed q = true).
      { destruct (qN1 _ R _ E) as [(_ & W & _)|(_ & _ & [X|X])]; auto; try congruence.
        rewrite W in M. discriminate. }
      rewrite Cl in H. apply leave_shape in H as (m & _ & -> & ->). cbn. auto 10.
  - destruct (rph q r) eqn:E; try discriminate.
    + destruct (step (mutex q) (DeliverForeign r)); [|discriminate]. injection H as <- <-.
      exists r. cbn. rewrite upd_same. repeat split; auto.
    + apply leave_shape in H as (m & _ & -> & ->). exists r. cbn. rewrite upd_same. auto 10.
    + destruct (n_unsub_shape r q) as (w & k & U). rewrite U in H.
      apply leave_shape in H as (m & _ & -> & ->). exists r. cbn. rewrite upd_same. auto 10.
Qed.

(* put on a closed queue raises StreamClosed and stores nothing *)
Theorem put_closed_rejected q x : closed q = true -> qstep q (Put x) = Some (q, OClosed).
Proof. intros C. cbn. now rewrite C. Qed.

Theorem put_open_accepted q x : closed q = false ->
  exists q', qstep q (Put x) = Some (q', ONone) /\ buf q' = buf q ++ [x] /\
             accepted q' = accepted q ++ [x].
Proof. intros C. cbn. rewrite C. destruct (nwait q); eexists; split; try reflexivity; auto. Qed.

(* receivers are served in the order in which they started waiting: the read-mutex tickets (drawn in
   increasing order by Get, get_draws_ticket) of the receivers that obtained an item, in the order of
   obtaining it, are strictly increasing *)
Theorem receivers_fifo q : qreachable q -> StronglySorted lt (served q).
Proof. intros R. apply qreachable_inv in R. apply (qS1 _ R). Qed.

Theorem get_draws_ticket q r q' o : qreachable q -> qstep q (Get r) = Some (q', o) ->
  tick (mutex q') r = ntick (mutex q) /\ ntick (mutex q') = S (ntick (mutex q)) /\
  Forall (fun t => t < ntick (mutex q)) (served q).
Proof.
  intros R H. apply qreachable_inv in R. unfold qstep in H.
  destruct (rph q r) eqn:E; try discriminate.
  pose proof (qC _ R r) as C. unfold coupled in C. rewrite E in C.
  destruct (step (mutex q) (Request r)) as [m'|] eqn:X; [|discriminate].
  destruct (ticket_fresh _ _ _ X C) as (T1 & T2 & _).
  assert (M : tick (mutex q') = tick m' /\ ntick (mutex q') = ntick m').
  { destruct (is_inside m' r); [|injection H as <- <-; auto].
    unfold after_mutex in H. cbn in H.
    destruct (buf q); [destruct (closed q)|]; try (injection H as <- <-; auto).
    apply leave_shape in H as (m & Y & -> & _). exact (exit_keeps _ _ _ Y). }
  destruct M as [-> ->]. repeat split; auto.
  apply Forall_forall. intros t Ht. apply (qS2 _ R) in Ht. now apply (iD4 _ (qL _ R)).
Qed.

(* only the receiver that holds the read mutex can be past it: one receiver at a time owns the head *)
Theorem receivers_exclusive q : qreachable q -> forall r r',
  (rph q r = RPostpone \/ rph q r = RWaitItem) -> (rph q r' = RPostpone \/ rph q r' = RWaitItem) ->
  r = r'.
Proof.
  intros R r r' H H'. apply qreachable_inv in R.
  pose proof (qC _ R r) as C. pose proof (qC _ R r') as C'. unfold coupled in *.
  eapply inside_unique; [apply (qL _ R)| |].
  - destruct H as [H|H]; rewrite H in C; eauto.
  - destruct H' as [H'|H']; rewrite H' in C'; eauto.
Qed.

(* no lost wake-up, and close wakes everybody: a receiver waiting for an item while the buffer is not
   empty or the queue is closed has its wake-up in flight; a postponed receiver always finds its item *)
Theorem no_lost_wakeup q r : qreachable q -> rph q r = RWaitItem ->
  (buf q <> [] \/ closed q = true) ->
  In r (nwoken q) /\ exists q' o, qstep q (ItemWake r) = Some (q', o).
Proof.
  intros R E B. apply qreachable_inv in R.
  assert (W : nwoken q = [r]).
  { destruct (qN1 _ R _ E) as [(_ & _ & B1 & B2)|(_ & W & _)]; auto. destruct B; congruence. }
  split; [rewrite W; now left|].
  unfold qstep. rewrite E, W. cbn. rewrite Nat.eqb_refl. cbn.
  pose proof (holding_unsub _ _ R E) as Hd. pose proof (unsub_fresh _ _ R E) as Fr.
  destruct (pop r (n_unsubscribe r q)) as [[x q1]|] eqn:Pp.
  - destruct (pop_holding _ _ _ _ Hd Fr Pp) as (Hd1 & _).
    destruct (leave_some r q1 (OGot x) Hd1) as [q' L]. eauto.
  - destruct (closed (n_unsubscribe r q)).
    + destruct (leave_some r _ OClosed Hd) as [q' L]. eauto.
    + destruct (leave_some r _ OCrash Hd) as [q' L]. eauto.
Qed.

Theorem postponed_gets_item q r : qreachable q -> rph q r = RPostpone ->
  exists x q', qstep q (PostponeDone r) = Some (q', OGot x) /\ buf q = x :: buf q'.
Proof.
  intros R E. pose proof R as R0. apply qreachable_inv in R.
  pose proof (holding_postpone _ _ R E) as Hd.
  pose proof (holder_fresh _ r R (or_introl E)) as Fr.
  unfold qstep. rewrite E. destruct (pop r q) as [[x q1]|] eqn:Pp.
  - destruct (pop_holding _ _ _ _ Hd Fr Pp) as (Hd1 & B & _).
    destruct (leave_some r q1 (OGot x) Hd1) as [q' L]. exists x, q'. split; auto.
    apply leave_shape in L as (m & _ & -> & _). exact B.
  - exfalso. unfold pop in Pp. destruct (buf q) eqn:B; [|discriminate]. eapply qP; eauto.
Qed.

(* a foreign signal (cancel / until-interrupt / close) is possible at every suspension point of a
   receiver; by step_spec it changes neither buffer nor the accepted / delivered logs *)
Theorem foreign_enabled q r : qreachable q -> rph q r <> RIdle ->
  exists q', qstep q (Foreign r) = Some (q', ORaised).
Proof.
  intros R E. apply qreachable_inv in R. unfold qstep. destruct (rph q r) eqn:P; [congruence| | |].
  - pose proof (qC _ R r) as C. unfold coupled in C. rewrite P in C.
    cbn. rewrite C. eauto.
  - apply leave_some. apply holding_postpone; auto.
  - apply leave_some. apply holding_unsub; auto.
Qed.

Theorem get_enabled q r : qreachable q -> rph q r = RIdle -> exists q' o, qstep q (Get r) = Some (q', o).
Proof.
  intros R E. apply qreachable_inv in R. pose proof (qC _ R r) as C. unfold coupled in C.
  rewrite E in C. unfold qstep. rewrite E.
  destruct (step (mutex q) (Request r)) as [m'|] eqn:X; [|destruct (idle_can_request _ _ (qL _ R) C X)].
  pose proof (inv_step _ _ _ (qL _ R) X) as I'.
  pose proof (step_frame _ _ _ X) as F. cbn [actor] in F.
  destruct (request_effect _ _ _ (qL _ R) C X) as [(P & T & NI)|P]; unfold is_inside; rewrite P; eauto.
  assert (Hd : holding r (set_mutex q m')).
  { eapply holding_new_mutex; eauto using grants_mono. congruence. }
  unfold after_mutex. cbn. destruct (buf q); eauto. destruct (closed q); eauto.
  destruct (leave_some r (set_mutex q m') OClosed Hd) as [q' L]. eauto.
Qed.

Lemma qrun_reachable l : forall q q' os, qreachable q -> qrun q l = Some (q', os) -> qreachable q'.
Proof.
  induction l as [|t r IH]; cbn; intros q q' os R H.
  - injection H as <- <-. auto.
  - destruct (qstep q t) as [[q1 o]|] eqn:E; [|discriminate].
    destruct (qrun q1 r) as [[q2 os']|] eqn:E2; [|discriminate]. injection H as <- <-.
    eapply IH; [|eauto]. econstructor; eauto.
Qed.

(* after close: nothing more is accepted, what is buffered is still handed out from the head, and
   StreamClosed reaches a receiver only once the buffer is empty *)
Theorem close_drains_then_raises q t q' o : qreachable q -> closed q = true ->
  qstep q t = Some (q', o) ->
  accepted q' = accepted q /\ closed q' = true /\
  (receiver_of t <> None -> o = OClosed -> buf q = [] /\ buf q' = []) /\
  (forall x, o = OGot x -> buf q = x :: buf q') /\
  (buf q <> [] -> o <> OClosed \/ receiver_of t = None).
Proof.
  intros R C H. pose proof (step_spec _ _ _ _ R H) as S. destruct o.
  - destruct S as [_ S].
    assert (A : accepted q' = accepted q /\ closed q' = true).
    { destruct t; [destruct S; congruence | destruct S as (-> & _ & ->); auto | ..];
        destruct S as (_ & -> & ->); auto. }
    destruct A as [A C']. repeat split; auto; try discriminate. intros _. left. discriminate.
  - destruct S as (r & _ & B & _ & _ & A & C'). rewrite C in C'. repeat split; auto; try discriminate.
    + intros y [= ->]. auto.
    + intros _. left. discriminate.
  - destruct S as (_ & C' & B & A & _ & E). repeat split; auto; try discriminate.
    + rewrite B. auto.
    + intros NB. right. destruct (receiver_of t); auto. exfalso. apply NB. apply E. discriminate.
  - destruct S as (r & -> & _ & B & C' & A & _). rewrite C in C'. repeat split; auto; try discriminate.
    intros _. left. discriminate.
  - destruct S.
Qed.

Example ex_cancel_after_wake_keeps_item :
  (* receiver 0 waits for an item, put 7 wakes it, it is cancelled before resuming, receiver 1 gets 7 *)
  option_map snd (qrun qinit [Get 0; Get 1; Put 7; Foreign 0; MutexWake 1; PostponeDone 1])
  = Some [ONone; ONone; ONone; ORaised; ONone; OGot 7].
Proof. reflexivity. Qed.
