(** Discipline lemmas for usim.Queue (DESIGN.md 2.2), continuing LockLink.v: the object-state effect of the
    atomic sections of the machine's queue code (Lib.v: [queue_put], [queue_close], [queue_pop], the item
    subscription of [queue_get], and the sections of the read mutex inside [with_lock]) are the operations
    out of which QueueProto builds its transitions, under the relation [qlink].  The protocol invariants
    (exactly-once, order, ...) therefore hold of every machine object state related to a reachable
    protocol state.

    Scope: object-state level (sections as functions on [objs], like those of LockLink.v).  [Put] and
    [Close] are single primitives and are also tied to [exec]; for the receiver the exec-level symbolic
    execution of [queue_get] is NOT done here (see design_notes/links.md). *)
From Coq Require Import ZArith List Bool Arith Lia.
From RecordUpdate Require Import RecordSet.
From Usim Require Import XTime Tables Kernel Machine MachineProps Lib WaitSpecs LockLink.
From Usim Require LockProto LockProtoProps QueueProto QueueProtoProps.
Import ListNotations.
Import RecordSetNotations.

Module QP := QueueProto.
Module QPP := QueueProtoProps.

(** * A plain notification with its open subscriptions ([LockLink.subs], written out) *)
Record nlinkf (o : objs) (n : nid) (wk : aid -> sid) (wt wo : list aid) : Prop := {
  n_lt : n < length (notifs o);
  n_plain : nk (get_notif o n) = NPlain;
  n_waiting : Machine.waiting (get_notif o n) = map (fun a => (a, wk a)) wt;
  n_woken : forall a, In a wo -> is_scheduled o (wk a) = true;
  n_queued : forall a, In a wt -> is_scheduled o (wk a) = false;
  n_alloc : forall a, In a (wo ++ wt) -> wk a < length (sigs o);
  n_inj : NoDup (map wk wt)
}.

Lemma nlinkf_subs o n wk wt wo : nlinkf o n wk wt wo <-> subs o n wk wt wo.
Proof. split; intros []; constructor; assumption. Qed.

Lemma link_nlinkf o l wk s : link o l wk s -> nlinkf o (lnotif o l) wk (LP.waiting s) (LP.woken s).
Proof. intros K. apply nlinkf_subs. apply (linkf_subs _ _ _ _ _ _ _ K). Qed.

(** [__subscribe__] with a fresh wake-up *)
Definition sec_subscribe (o : objs) (n : nid) (a : aid) : objs :=
  plain_subscribe (o <| sigs := sigs o ++ [SKWake] |>) n a (length (sigs o)).

(** * The footprint of the lock sections: what they leave alone (needed to carry the relation of
      OTHER objects, here the queue that owns the mutex, across a lock section) *)
Record lock_fp (o o' : objs) (l : nat) (X : list sid) : Prop := {
  fp_queues : queues o' = queues o;
  fp_llen : length (locks o') = length (locks o);
  fp_nlen : length (notifs o') = length (notifs o);
  fp_lnotif : lnotif o' l = lnotif o l;
  fp_notif : forall n', n' <> lnotif o l -> get_notif o' n' = get_notif o n';
  fp_sigs : length (sigs o) <= length (sigs o');
  fp_sched : forall w, ~ In w X -> is_scheduled o' w = is_scheduled o w
}.

Lemma lock_fp_refl o l X : lock_fp o o l X.
Proof. constructor; auto. Qed.

Lemma lock_fp_trans o o1 o2 l X X1 :
  lock_fp o o1 l X -> lock_fp o1 o2 l X1 -> incl X1 X -> lock_fp o o2 l X.
Proof.
  intros [A1 A2 A3 A4 A5 A6 A7] [B1 B2 B3 B4 B5 B6 B7] I. constructor; try congruence; try lia.
  - intros n' Hn. rewrite B5 by congruence. apply A5. exact Hn.
  - intros w Hw. rewrite B7 by (intros H; apply Hw; apply I; exact H). apply A7. exact Hw.
Qed.

Lemma fp_of_notif o o' l X : notif_fp o o' (lnotif o l) X -> lock_fp o o' l X.
Proof.
  intros []. constructor; auto.
  - now rewrite nf_locks.
  - apply lnotif_locks, nf_locks.
Qed.

Lemma fp_set_lock o l x X :
  l < length (locks o) -> l_notif x = lnotif o l -> lock_fp o (set_lock o l x) l X.
Proof.
  intros Hl Hn. constructor; auto.
  - cbn. apply length_list_upd.
  - unfold lnotif. rewrite get_lock_set_lock; auto.
Qed.

Lemma fp_release o l :
  l < length (locks o) -> lock_fp o (app_ops o (lock_release o l)) l (wsids o (lnotif o l)).
Proof.
  intros Hl. rewrite lock_release_eq. pose proof (awake_next_fp o (lnotif o l)) as F.
  apply (lock_fp_trans _ _ _ _ _ [] (fp_of_notif _ _ _ _ F)); [| apply incl_nil_l].
  apply fp_set_lock.
  - now rewrite (nf_locks _ _ _ _ F).
  - now rewrite (lnotif_locks _ _ l (nf_locks _ _ _ _ F)).
Qed.

Lemma fp_sec_enter o l a X :
  l < length (locks o) -> lock_fp o (sec_enter o l a) l X.
Proof.
  intros Hl. unfold sec_enter. destruct (l_owner (get_lock o l)) as [b|].
  - destruct (Nat.eqb a b); [apply fp_set_lock; auto | apply fp_of_notif, subscribe_fp].
  - apply (lock_fp_trans _ (take_free o l a) _ _ _ X); [| | apply incl_refl]; apply fp_set_lock; auto.
    unfold take_free. cbn. now rewrite length_list_upd.
Qed.

Lemma fp_sec_wake o l a w X : l < length (locks o) -> lock_fp o (sec_wake o l a w) l X.
Proof.
  intros Hl. unfold sec_wake. pose proof (fp_of_notif _ _ l X (unsubscribe_fp o (lnotif o l) a w X)) as F.
  apply (lock_fp_trans _ _ _ _ _ X F); [| apply incl_refl].
  apply fp_set_lock; auto. now rewrite (fp_llen _ _ _ _ F).
Qed.

Lemma fp_sec_foreign o l a w :
  l < length (locks o) -> lnotif o l < length (notifs o) ->
  lock_fp o (sec_foreign o l a w) l (wsids o (lnotif o l)).
Proof.
  intros Hl Hn. unfold sec_foreign. cbv zeta.
  pose proof (fp_of_notif _ _ l _ (unsubscribe_fp o (lnotif o l) a w (wsids o (lnotif o l)))) as F.
  destruct (owner_is _ l a); [| exact F].
  eapply lock_fp_trans; [exact F | apply fp_release; now rewrite (fp_llen _ _ _ _ F) |].
  rewrite (fp_lnotif _ _ _ _ F). apply unsubscribe_wsids, Hn.
Qed.

Lemma fp_sec_exit o l : l < length (locks o) -> lock_fp o (sec_exit o l) l (wsids o (lnotif o l)).
Proof.
  intros Hl. unfold sec_exit. cbv zeta.
  assert (F : lock_fp o (drop_depth o l) l (wsids o (lnotif o l))) by (apply fp_set_lock; auto).
  destruct (l_depth (get_lock o l) - 1 =? 0)%Z; [| exact F].
  eapply lock_fp_trans; [exact F | apply fp_release; now rewrite (fp_llen _ _ _ _ F) |].
  rewrite (fp_lnotif _ _ _ _ F). apply incl_refl.
Qed.

Definition qmx (o : objs) (q : nat) : nat := q_mutex (get_queue o q).
Definition qnt (o : objs) (q : nat) : nid := q_notif (get_queue o q).

(** [wkm] / [wkn] (ghost): the wake-up of the open subscription of an activity to the read mutex's /
    to the queue's notification.  Items are naturals in the protocol and integers in the machine. *)
Record qlinkf (o : objs) (q : nat) (wkm wkn : aid -> sid)
              (b : list nat) (cl : bool) (m : LP.st) (nw nwo : list aid) : Prop := {
  ql_lt : q < length (queues o);
  ql_buf : q_buf (get_queue o q) = map Z.of_nat b;
  ql_closed : q_closed (get_queue o q) = cl;
  ql_notif : nlinkf o (qnt o q) wkn nw nwo;
  ql_mutex : link o (qmx o q) wkm m;
  ql_sep : qnt o q <> lnotif o (qmx o q);
  ql_disj : forall x c, In x (LP.woken m ++ LP.waiting m) -> In c (nwo ++ nw) -> wkm x <> wkn c
}.

Definition qlink (o : objs) (q : nat) (wkm wkn : aid -> sid) (s : QP.qst) : Prop :=
  qlinkf o q wkm wkn (QP.buf s) (QP.closed s) (QP.mutex s) (QP.nwait s) (QP.nwoken s).

Lemma get_queue_set_queue o q x : q < length (queues o) -> get_queue (set_queue o q x) q = x.
Proof. intros H. unfold get_queue, set_queue. cbn. apply nth_list_upd_eq. exact H. Qed.

Lemma qlinkf_set_queue o q wkm wkn b cl m nw nwo x b' cl' :
  qlinkf o q wkm wkn b cl m nw nwo ->
  q_notif x = qnt o q -> q_mutex x = qmx o q -> q_buf x = map Z.of_nat b' -> q_closed x = cl' ->
  qlinkf (set_queue o q x) q wkm wkn b' cl' m nw nwo.
Proof.
  intros [] En Em Eb Ec.
  assert (G : get_queue (set_queue o q x) q = x) by (apply get_queue_set_queue; exact ql_lt0).
  constructor; unfold qnt, qmx; rewrite ?G, ?En, ?Em; auto.
  - cbn. rewrite length_list_upd. exact ql_lt0.
  - apply nlinkf_subs, (subs_frame o); auto. apply nlinkf_subs, ql_notif0.
  - apply (link_frame o); auto.
Qed.

(** [X]: the wake-ups the operation schedules, all of them of waiters *)
Lemma qlinkf_notif_op o o' q wkm wkn wkn' b cl m nw nwo nw' nwo' X :
  qlinkf o q wkm wkn b cl m nw nwo ->
  notif_fp o o' (qnt o q) X -> incl X (wsids o (qnt o q)) ->
  subs o' (qnt o q) wkn' nw' nwo' ->
  (forall c, In c (nwo' ++ nw') -> (In c (nwo ++ nw) /\ wkn' c = wkn c) \/ wkn' c = length (sigs o)) ->
  qlinkf o' q wkm wkn' b cl m nw' nwo'.
Proof.
  intros [] [] IX S Pend.
  assert (Gq : get_queue o' q = get_queue o q) by (unfold get_queue; now rewrite nf_queues).
  assert (Sch : forall x, In x (LP.woken m ++ LP.waiting m) -> is_scheduled o' (wkm x) = is_scheduled o (wkm x)).
  { intros x Hx. apply nf_sched. intros Hw. apply IX in Hw. unfold wsids in Hw.
    rewrite (n_waiting _ _ _ _ _ ql_notif0), map_map in Hw. cbn in Hw.
    apply in_map_iff in Hw as (c & Ec & Hc). apply (ql_disj0 x c); auto. apply in_or_app; auto. }
  constructor; unfold qnt, qmx; rewrite ?Gq; auto.
  - now rewrite nf_queues.
  - apply nlinkf_subs, S.
  - apply (link_frame o); auto.
    + now rewrite nf_locks.
    + now rewrite nf_nlen.
    + apply get_lock_locks, nf_locks.
  - rewrite (lnotif_locks o o' _ nf_locks). exact ql_sep0.
  - intros x c Hx Hc'. destruct (Pend c Hc') as [[Hc2 E]|E]; rewrite E.
    + apply ql_disj0; auto.
    + pose proof (k_alloc _ _ _ _ _ _ _ ql_mutex0 x Hx). lia.
Qed.

Lemma qlinkf_mutex_op o o' q wkm wkm' wkn b cl m m' nw nwo :
  qlinkf o q wkm wkn b cl m nw nwo ->
  lock_fp o o' (qmx o q) (wsids o (lnotif o (qmx o q))) ->
  link o' (qmx o q) wkm' m' ->
  (forall x, In x (LP.woken m' ++ LP.waiting m') ->
             (In x (LP.woken m ++ LP.waiting m) /\ wkm' x = wkm x) \/ wkm' x = length (sigs o)) ->
  qlinkf o' q wkm' wkn b cl m' nw nwo.
Proof.
  intros K F L Pend. destruct K. destruct F.
  assert (Gq : get_queue o' q = get_queue o q) by (unfold get_queue; now rewrite fp_queues0).
  assert (En : qnt o' q = qnt o q) by (unfold qnt; now rewrite Gq).
  assert (Em : qmx o' q = qmx o q) by (unfold qmx; now rewrite Gq).
  constructor; rewrite ?En, ?Em, ?Gq; auto.
  - rewrite fp_queues0. exact ql_lt0.
  - apply nlinkf_subs, (subs_frame o); [apply nlinkf_subs, ql_notif0 | lia | lia | auto |].
    intros c Hc. apply fp_sched0. unfold wsids.
    rewrite (k_waiting _ _ _ _ _ _ _ ql_mutex0), map_map. cbn. intros Hw.
    apply in_map_iff in Hw as (x & Ex & Hx). eapply (ql_disj0 x c); eauto. apply in_or_app; auto.
  - rewrite fp_lnotif0. exact ql_sep0.
  - intros x c Hx Hc. destruct (Pend x Hx) as [[Hx2 E]|E]; rewrite E.
    + apply ql_disj0; auto.
    + pose proof (n_alloc _ _ _ _ _ ql_notif0 c Hc). lia.
Qed.

Lemma pend_release m x : In x (LP.woken (LP.release m) ++ LP.waiting (LP.release m)) ->
  In x (LP.woken m ++ LP.waiting m).
Proof. unfold LP.release. destruct (LP.waiting m); cbn; auto. rewrite <- app_assoc. auto. Qed.

Lemma pend_unsubscribe a m x : In x (LP.woken (LP.unsubscribe a m) ++ LP.waiting (LP.unsubscribe a m)) ->
  In x (LP.woken m ++ LP.waiting m).
Proof.
  unfold LP.unsubscribe. destruct (LP.mem a (LP.woken m)); cbn; rewrite !in_app_iff; intros [H|H]; auto.
  - left. eapply LPP.In_rem1; eauto.
  - right. eapply LPP.In_rem1; eauto.
Qed.

Lemma pend_step m t m' x : LP.step m t = Some m' -> (forall a, t <> LP.Request a) ->
  In x (LP.woken m' ++ LP.waiting m') -> In x (LP.woken m ++ LP.waiting m).
Proof.
  intros H Nr Hx. destruct t as [a|a|a|a]; [exfalso; eapply Nr; eauto| | |]; cbn in H.
  - destruct (LP.ph m a); try discriminate. destruct (LP.mem a (LP.woken m)); try discriminate.
    injection H as <-. cbn in Hx. eapply pend_unsubscribe; eauto.
  - destruct (LP.ph m a); try discriminate. injection H as <-. cbn in Hx.
    destruct (LP.is_owner _ a).
    + apply pend_release in Hx. eapply pend_unsubscribe; eauto.
    + eapply pend_unsubscribe; eauto.
  - destruct (LP.ph m a) as [| |[|n]]; try discriminate. injection H as <-.
    destruct (Nat.eqb _ 0).
    + apply pend_release in Hx. exact Hx.
    + exact Hx.
Qed.

Lemma pend_request o l a wk m m' x :
  l_owner (get_lock o l) = LP.owner m -> LP.step m (LP.Request a) = Some m' ->
  In x (LP.woken m' ++ LP.waiting m') ->
  (In x (LP.woken m ++ LP.waiting m) /\ wk_enter o l a wk x = wk x) \/
  wk_enter o l a wk x = length (sigs o).
Proof.
  intros O H Hx. unfold wk_enter. rewrite O.
  cbn in H. destruct (LP.ph m a); try discriminate; destruct (LP.owner m) as [ow|]; try discriminate.
  - destruct (Nat.eqb ow a) eqn:E; [discriminate|]. injection H as <-. cbn in Hx.
    rewrite Nat.eqb_sym, E.
    destruct (Nat.eq_dec x a) as [->|Nx]; [right; apply LPP.upd_same|].
    left. rewrite LPP.upd_other by auto. split; auto.
    rewrite app_assoc in Hx. apply in_app_or in Hx as [Hx|[<-|[]]]; [exact Hx|congruence].
  - injection H as <-. cbn in Hx. auto.
  - destruct (Nat.eqb ow a) eqn:E; [|discriminate]. injection H as <-. cbn in Hx.
    rewrite Nat.eqb_sym, E. auto.
Qed.

(** ** [Queue.put] (the primitive in front of the final postponement) *)
Definition sec_put (o : objs) (q : nat) (z : Z) : objs :=
  let x := get_queue o q in
  let o1 := set_queue o q (x <| q_buf := q_buf x ++ [z] |>) in
  app_ops o (fst (awake_next o1 (q_notif x))).

Lemma qlinkf_subs o q wkm wkn b cl m nw nwo :
  qlinkf o q wkm wkn b cl m nw nwo -> subs o (qnt o q) wkn nw nwo.
Proof. intros K. apply nlinkf_subs, K. Qed.

Theorem qsim_put o q wkm wkn s x :
  qlink o q wkm wkn s -> QP.closed s = false ->
  exists s', QP.qstep s (QP.Put x) = Some (s', QP.ONone) /\ qlink (sec_put o q (Z.of_nat x)) q wkm wkn s'.
Proof.
  intros K Hc. unfold qlink in *. unfold sec_put. cbv zeta. set (xq := get_queue o q).
  set (o1 := set_queue o q (xq <| q_buf := q_buf xq ++ [Z.of_nat x] |>)).
  change (app_ops o (fst (awake_next o1 (q_notif xq)))) with (app_ops o1 (fst (awake_next o1 (q_notif xq)))).
  assert (K1 : qlinkf o1 q wkm wkn (QP.buf s ++ [x]) (QP.closed s) (QP.mutex s) (QP.nwait s) (QP.nwoken s)).
  { apply (qlinkf_set_queue _ _ _ _ _ _ _ _ _ _ _ _ K); [reflexivity | reflexivity | | apply K].
    cbn. unfold xq. rewrite (ql_buf _ _ _ _ _ _ _ _ _ K), map_app. reflexivity. }
  assert (En : qnt o1 q = q_notif xq).
  { unfold qnt, o1. rewrite get_queue_set_queue by apply K. reflexivity. }
  pose proof (qlinkf_subs _ _ _ _ _ _ _ _ _ K1) as S. rewrite En in S.
  assert (Q : qlinkf (app_ops o1 (fst (awake_next o1 (q_notif xq)))) q wkm wkn (QP.buf s ++ [x]) (QP.closed s)
                     (QP.mutex s) (tl (QP.nwait s)) (QP.nwoken s ++ hd_list (QP.nwait s))).
  { apply (qlinkf_notif_op o1 _ _ _ _ _ _ _ _ _ _ _ _ (wsids o1 (q_notif xq)) K1); rewrite ?En.
    - apply awake_next_fp.
    - apply incl_refl.
    - apply subs_awake_next, S.
    - intros c Hc'. left. split; auto. rewrite <- app_assoc in Hc'.
      apply in_app_or in Hc' as [H|H]; apply in_or_app; auto. right.
      destruct (QP.nwait s); cbn in H; auto. }
  cbn [QP.qstep]. rewrite Hc. destruct (QP.nwait s) as [|r w]; eexists; (split; [reflexivity|]);
    unfold qlink; cbn [QP.buf QP.closed QP.mutex QP.nwait QP.nwoken];
    cbn [tl hd_list] in Q; rewrite ?app_nil_r, ?Hc in Q; exact Q.
Qed.

(** on a closed queue [put] raises StreamClosed and touches nothing: [queue_put_runs] below *)

(** ** [Queue.close] *)
Definition sec_close (o : objs) (q : nat) : objs :=
  let x := get_queue o q in
  if q_closed x then o
  else app_ops o (awake_all (set_queue o q (x <| q_closed := true |>)) (q_notif x)).

Theorem qsim_close o q wkm wkn s :
  qlink o q wkm wkn s ->
  exists s', QP.qstep s QP.Close = Some (s', QP.ONone) /\ qlink (sec_close o q) q wkm wkn s'.
Proof.
  intros K. unfold qlink in *. unfold sec_close. cbv zeta. cbn [QP.qstep].
  rewrite (ql_closed _ _ _ _ _ _ _ _ _ K).
  destruct (QP.closed s) eqn:Hc.
  - eexists. split; [reflexivity|]. unfold qlink. rewrite Hc. exact K.
  - set (xq := get_queue o q). set (o1 := set_queue o q (xq <| q_closed := true |>)).
    change (app_ops o (awake_all o1 (q_notif xq))) with (app_ops o1 (awake_all o1 (q_notif xq))).
    assert (K1 : qlinkf o1 q wkm wkn (QP.buf s) true (QP.mutex s) (QP.nwait s) (QP.nwoken s)).
    { apply (qlinkf_set_queue _ _ _ _ _ _ _ _ _ _ _ _ K); [reflexivity | reflexivity | apply K | reflexivity]. }
    assert (En : qnt o1 q = q_notif xq).
    { unfold qnt, o1. rewrite get_queue_set_queue by apply K. reflexivity. }
    pose proof (qlinkf_subs _ _ _ _ _ _ _ _ _ K1) as S. rewrite En in S.
    eexists. split; [reflexivity|]. cbn.
    apply (qlinkf_notif_op o1 _ _ _ _ _ _ _ _ _ _ _ _ (wsids o1 (q_notif xq)) K1); rewrite ?En.
    + apply awake_all_fp.
    + apply incl_refl.
    + apply subs_awake_all, S.
    + intros c Hc'. left. split; auto. rewrite app_nil_r in Hc'. exact Hc'.
Qed.

(** ** [popleft] by the receiver that holds the mutex ([queue_pop]) *)
Definition sec_pop (o : objs) (q : nat) : objs :=
  let x := get_queue o q in
  match q_buf x with z :: r => set_queue o q (x <| q_buf := r |>) | [] => o end.

Theorem qsim_pop o q wkm wkn s r x s' :
  qlink o q wkm wkn s -> QP.pop r s = Some (x, s') ->
  qlink (sec_pop o q) q wkm wkn s' /\
  exists zs, q_buf (get_queue o q) = Z.of_nat x :: zs.   (* the machine returns [VZ (Z.of_nat x)] *)
Proof.
  intros K H. unfold qlink in *. pose proof (ql_buf _ _ _ _ _ _ _ _ _ K) as Eb. unfold QP.pop in H.
  destruct (QP.buf s) as [|y b]; [discriminate|]. injection H as <- <-. cbn [map] in Eb.
  split; [| eauto]. unfold sec_pop. cbv zeta. rewrite Eb. cbn.
  apply (qlinkf_set_queue _ _ _ _ _ _ _ _ _ _ _ _ K); [reflexivity | reflexivity | reflexivity | apply K].
Qed.

(** ** the item subscription of [_await_message]: [await self._notification] up to its suspension *)
Definition sec_item_wait (o : objs) (q : nat) (a : aid) : objs := sec_subscribe o (qnt o q) a.

Theorem qsim_item_wait o q wkm wkn s a :
  qlink o q wkm wkn s -> ~ In a (QP.nwait s) -> ~ In a (QP.nwoken s) ->
  is_scheduled o (length (sigs o)) = false ->
  qlink (sec_item_wait o q a) q wkm (LP.upd wkn a (length (sigs o)))
        (QP.qmk (QP.buf s) (QP.closed s) (QP.mutex s) (QP.nwait s ++ [a]) (QP.nwoken s)
                (LP.upd (QP.rph s) a QP.RWaitItem) (QP.accepted s) (QP.delivered s) (QP.served s)).
Proof.
  intros K Nw No Fr. unfold qlink in *. cbn.
  apply (qlinkf_notif_op o _ _ _ _ _ _ _ _ _ _ _ _ [] K).
  - apply subscribe_fp.
  - apply incl_nil_l.
  - apply subs_subscribe; auto. apply nlinkf_subs, K.
  - intros c Hc. rewrite app_assoc in Hc. apply in_app_or in Hc as [Hc|[<-|[]]].
    + destruct (Nat.eq_dec c a) as [->|Nc]; [right; apply LPP.upd_same|].
      left. split; auto. apply LPP.upd_other. exact Nc.
    + right. apply LPP.upd_same.
Qed.

(** ** [__unsubscribe__] from the queue's notification *)
Definition sec_item_unsub (o : objs) (q : nat) (a : aid) (w : sid) : objs :=
  app_ops o (plain_unsubscribe o (qnt o q) a w).

Theorem qsim_item_unsub o q wkm wkn s a :
  qlink o q wkm wkn s -> In a (QP.nwoken s ++ QP.nwait s) ->
  qlink (sec_item_unsub o q a (wkn a)) q wkm wkn (QP.n_unsubscribe a s).
Proof.
  intros K Ha. unfold qlink in *.
  assert (Q : qlinkf (sec_item_unsub o q a (wkn a)) q wkm wkn (QP.buf s) (QP.closed s) (QP.mutex s)
                (if LP.mem a (QP.nwoken s) then QP.nwait s else LP.rem1 a (QP.nwait s))
                (if LP.mem a (QP.nwoken s) then LP.rem1 a (QP.nwoken s) else QP.nwoken s)).
  { apply (qlinkf_notif_op o _ _ _ _ _ _ _ _ _ _ _ _ [] K).
    - apply unsubscribe_fp.
    - apply incl_nil_l.
    - apply subs_unsubscribe; auto. apply nlinkf_subs, K.
    - intros c Hc. left. split; auto.
      destruct (LP.mem a (QP.nwoken s)); apply in_app_or in Hc as [Hc|Hc]; apply in_or_app; auto.
      + left. eapply LPP.In_rem1; eauto.
      + right. eapply LPP.In_rem1; eauto. }
  unfold QP.n_unsubscribe. destruct (LP.mem a (QP.nwoken s)); exact Q.
Qed.

(** * the sections of the read mutex, lifted to the queue: every LockLink simulation lemma carries the
      rest of [qlink] along ([QP.set_mutex]: the queue protocol drives its mutex only through [LP.step]) *)
Lemma qlink_lt o q wkm wkn s : qlink o q wkm wkn s ->
  qmx o q < length (locks o) /\ lnotif o (qmx o q) < length (notifs o).
Proof. intros K. destruct K. destruct ql_mutex0. auto. Qed.

Theorem qsim_mutex_request o q wkm wkn s a :
  qlink o q wkm wkn s -> LPP.inv (QP.mutex s) -> LP.ph (QP.mutex s) a <> LP.Waiting ->
  is_scheduled o (length (sigs o)) = false ->
  exists m', LP.step (QP.mutex s) (LP.Request a) = Some m' /\
             qlink (sec_enter o (qmx o q) a) q (wk_enter o (qmx o q) a wkm) wkn (QP.set_mutex s m').
Proof.
  intros K I P Fr. destruct (qlink_lt _ _ _ _ _ K) as [Hl Hn]. unfold qlink in *.
  destruct (sim_request _ _ _ _ a (ql_mutex _ _ _ _ _ _ _ _ _ K) I P Fr) as (m' & St & L).
  exists m'. split; [exact St|]. cbn.
  eapply qlinkf_mutex_op; [exact K | apply fp_sec_enter; auto | exact L |].
  intros x Hx. eapply pend_request; eauto. apply (ql_mutex _ _ _ _ _ _ _ _ _ K).
Qed.

Theorem qsim_mutex_wake o q wkm wkn s a :
  qlink o q wkm wkn s -> LPP.inv (QP.mutex s) -> LP.ph (QP.mutex s) a = LP.Waiting ->
  In a (LP.woken (QP.mutex s)) ->
  exists m', LP.step (QP.mutex s) (LP.DeliverWake a) = Some m' /\
             qlink (sec_wake o (qmx o q) a (wkm a)) q wkm wkn (QP.set_mutex s m').
Proof.
  intros K I P W. destruct (qlink_lt _ _ _ _ _ K) as [Hl Hn]. unfold qlink in *.
  destruct (sim_wake _ _ _ _ a (ql_mutex _ _ _ _ _ _ _ _ _ K) I P W) as (m' & St & L).
  exists m'. split; [exact St|]. cbn.
  eapply qlinkf_mutex_op; [exact K | apply fp_sec_wake; auto | exact L |].
  intros x Hx. left. split; auto. eapply pend_step; eauto. discriminate.
Qed.

Theorem qsim_mutex_foreign o q wkm wkn s a :
  qlink o q wkm wkn s -> LPP.inv (QP.mutex s) -> LP.ph (QP.mutex s) a = LP.Waiting ->
  exists m', LP.step (QP.mutex s) (LP.DeliverForeign a) = Some m' /\
             qlink (sec_foreign o (qmx o q) a (wkm a)) q wkm wkn (QP.set_mutex s m').
Proof.
  intros K I P. destruct (qlink_lt _ _ _ _ _ K) as [Hl Hn]. unfold qlink in *.
  destruct (sim_foreign _ _ _ _ a (ql_mutex _ _ _ _ _ _ _ _ _ K) I P) as (m' & St & L).
  exists m'. split; [exact St|]. cbn.
  eapply qlinkf_mutex_op; [exact K | apply fp_sec_foreign; auto | exact L |].
  intros x Hx. left. split; auto. eapply pend_step; eauto. discriminate.
Qed.

Theorem qsim_mutex_exit o q wkm wkn s a n :
  qlink o q wkm wkn s -> LPP.inv (QP.mutex s) -> LP.ph (QP.mutex s) a = LP.Inside (S n) ->
  exists m', LP.step (QP.mutex s) (LP.Exit a) = Some m' /\
             qlink (sec_exit o (qmx o q)) q wkm wkn (QP.set_mutex s m').
Proof.
  intros K I P. destruct (qlink_lt _ _ _ _ _ K) as [Hl Hn]. unfold qlink in *.
  destruct (sim_exit _ _ _ _ a n (ql_mutex _ _ _ _ _ _ _ _ _ K) I P) as (m' & St & L).
  exists m'. split; [exact St|]. cbn.
  eapply qlinkf_mutex_op; [exact K | apply fp_sec_exit; auto | exact L |].
  intros x Hx. left. split; auto. eapply pend_step; eauto. discriminate.
Qed.

(** [QP.leave]: the receiver's [__aexit__] of the read mutex, whatever the outcome reported *)
Lemma qsim_leave o q wkm wkn s r :
  qlink o q wkm wkn s -> LPP.inv (QP.mutex s) -> LP.ph (QP.mutex s) r = LP.Inside 1 ->
  exists s', (forall out, QP.leave r s out = Some (s', out)) /\ qlink (sec_exit o (qmx o q)) q wkm wkn s'.
Proof.
  intros K IL C. destruct (qsim_mutex_exit _ _ _ _ _ r 0 K IL C) as (m' & St & K').
  unfold QP.leave. rewrite St. eexists. split; [reflexivity | exact K'].
Qed.

(** kernel-only steps (the wake-up of a [postpone()], a revocation, anything that neither touches the
    queue, its notification, its mutex nor the [scheduled] flag of an open wake-up) keep the relation *)
Lemma qlink_frame o o' q wkm wkn s :
  qlink o q wkm wkn s ->
  queues o' = queues o -> locks o' = locks o -> notifs o' = notifs o ->
  length (sigs o) <= length (sigs o') ->
  (forall w, w < length (sigs o) -> is_scheduled o' w = is_scheduled o w) ->
  qlink o' q wkm wkn s.
Proof.
  intros K Eq El En Hs Sch. unfold qlink in *. destruct K.
  assert (Gq : get_queue o' q = get_queue o q) by (unfold get_queue; now rewrite Eq).
  assert (Gl : forall l, get_lock o' l = get_lock o l) by (intros; unfold get_lock; now rewrite El).
  assert (Gn : forall n, get_notif o' n = get_notif o n) by (intros; unfold get_notif; now rewrite En).
  constructor; unfold qnt, qmx, lnotif; rewrite ?Gq, ?Gl; auto.
  - rewrite Eq. exact ql_lt0.
  - apply nlinkf_subs, (subs_frame o); auto.
    + apply nlinkf_subs, ql_notif0.
    + rewrite En. apply Nat.le_refl.
    + intros a Ha. apply Sch. apply (n_alloc _ _ _ _ _ ql_notif0). exact Ha.
  - apply (link_frame o); auto.
    + now rewrite El.
    + rewrite En. apply Nat.le_refl.
    + intros a Ha. apply Sch. apply (k_alloc _ _ _ _ _ _ _ ql_mutex0). exact Ha.
Qed.

(** [postpone()] up to its suspension: a fresh wake-up for the running activity, scheduled now *)
Definition sec_postpone (o : objs) (a : aid) : objs :=
  set_kern (o <| sigs := sigs o ++ [SKWake] |>) (kapply (kern o) (KNow a (Some (length (sigs o))))).
(** [Interrupt.revoke] *)
Definition sec_revoke (o : objs) (w : sid) : objs := set_kern o (kapply (kern o) (KRevoke w)).

Lemma qlink_postpone o q wkm wkn s a : qlink o q wkm wkn s -> qlink (sec_postpone o a) q wkm wkn s.
Proof.
  intros K. apply (qlink_frame o); auto.
  - unfold sec_postpone. cbn. rewrite app_length. lia.
  - intros w Hw. unfold sec_postpone, is_scheduled. cbn. rewrite (proj2 (Nat.eqb_neq w (length (sigs o)))) by lia.
    reflexivity.
Qed.
Lemma qlink_revoke o q wkm wkn s w : qlink o q wkm wkn s -> qlink (sec_revoke o w) q wkm wkn s.
Proof. intros K. eapply qlink_frame; eauto. Qed.

(** ** the code of [_await_message] after the mutex was acquired, up to the next suspension:
    item buffered -> [postpone()]; empty and closed -> StreamClosed leaves the [async with] ([__aexit__]);
    empty and open -> subscribe to the queue's notification *)
Definition sec_after_mutex (o : objs) (q : nat) (r : aid) : objs :=
  let x := get_queue o q in
  match q_buf x with
  | _ :: _ => sec_postpone o r
  | [] => if q_closed x then sec_exit o (qmx o q) else sec_item_wait o q r
  end.
Definition wkn_after_mutex (o : objs) (q : nat) (r : aid) (wkn : aid -> sid) : aid -> sid :=
  let x := get_queue o q in
  match q_buf x with
  | _ :: _ => wkn
  | [] => if q_closed x then wkn else LP.upd wkn r (length (sigs o))
  end.

Lemma qsim_after_mutex o q wkm wkn s r :
  qlink o q wkm wkn s -> QPP.holding r s -> is_scheduled o (length (sigs o)) = false ->
  exists s' out, QP.after_mutex r s = Some (s', out) /\
                 qlink (sec_after_mutex o q r) q wkm (wkn_after_mutex o q r wkn) s'.
Proof.
  intros K H Fr. unfold sec_after_mutex, wkn_after_mutex, QP.after_mutex. cbv zeta.
  pose proof K as K0. unfold qlink in K0. destruct K0.
  rewrite ql_buf0, ql_closed0. destruct (QP.buf s) as [|y b] eqn:Eb; cbn [map].
  - destruct (QP.closed s) eqn:Ec.
    + destruct (qsim_leave _ _ _ _ _ r K (QPP.hL _ _ H) (QPP.hI _ _ H)) as (s' & El & K').
      exists s', QP.OClosed. split; [apply El | exact K'].
    + destruct (QPP.hN _ _ H) as [W1 W2].
      do 2 eexists. split; [reflexivity|].
      pose proof (qsim_item_wait _ _ _ _ _ r K) as Q. rewrite W1, W2, Eb, Ec in Q.
      rewrite W1, W2. apply Q; auto.
  - do 2 eexists. split; [reflexivity|]. apply qlink_postpone. exact K.
Qed.

(** ** Get: [_await_message] up to its first suspension *)
Definition sec_get (o : objs) (q : nat) (r : aid) : objs :=
  let o1 := sec_enter o (qmx o q) r in
  match l_owner (get_lock o (qmx o q)) with
  | None => sec_after_mutex o1 q r
  | Some _ => o1
  end.

Theorem qsim_get o q wkm wkn s r :
  qlink o q wkm wkn s -> QPP.qinv s -> QP.rph s r = QP.RIdle ->
  is_scheduled o (length (sigs o)) = false ->
  exists s' out wkm' wkn', QP.qstep s (QP.Get r) = Some (s', out) /\ qlink (sec_get o q r) q wkm' wkn' s'.
Proof.
  intros K I Pr Fr. pose proof (QPP.qL _ I) as IL. pose proof (QPP.qC _ I r) as C.
  unfold QPP.coupled in C. rewrite Pr in C.
  assert (Pw : LP.ph (QP.mutex s) r <> LP.Waiting) by congruence.
  destruct (qsim_mutex_request _ _ _ _ _ r K IL Pw Fr) as (m' & St & K1).
  cbn [QP.qstep]. rewrite Pr, St. unfold sec_get. cbv zeta.
  assert (Eo : l_owner (get_lock o (qmx o q)) = LP.owner (QP.mutex s)).
  { unfold qlink in K. apply (k_owner _ _ _ _ _ _ _ (ql_mutex _ _ _ _ _ _ _ _ _ K)). }
  pose proof (LPP.iC _ IL) as CO. unfold LPP.inv_owner in CO.
  pose proof St as St0. cbn [LP.step] in St. rewrite C in St. rewrite Eo.
  destruct (LP.owner (QP.mutex s)) as [b|] eqn:O.
  - destruct (Nat.eqb b r) eqn:E; [discriminate|]. injection St as <-.
    unfold QP.is_inside. cbn. rewrite LPP.upd_same.
    do 4 eexists. split; [reflexivity|]. exact K1.
  - injection St as Em.
    assert (Pi : LP.ph m' r = LP.Inside 1) by (rewrite <- Em; cbn; apply LPP.upd_same).
    unfold QP.is_inside. rewrite Pi.
    assert (H : QPP.holding r (QP.set_mutex s m')).
    { apply QPP.holding_new_mutex; auto.
      - eapply LPP.inv_step; eauto.
      - intros b Nb. apply (QPP.step_frame _ _ _ St0). exact Nb.
      - eapply QPP.grants_mono; eauto.
      - destruct CO as (_ & _ & _ & CO). exact CO.
      - congruence. }
    assert (Fr1 : is_scheduled (sec_enter o (qmx o q) r) (length (sigs (sec_enter o (qmx o q) r))) = false).
    { unfold sec_enter. rewrite Eo. exact Fr. }
    destruct (qsim_after_mutex _ _ _ _ _ r K1 H Fr1) as (s' & out & A & K2).
    exists s', out. do 2 eexists. split; [exact A | exact K2].
Qed.

(** ** MutexWake: the mutex wake-up is delivered, continue to the next suspension *)
Definition sec_mutex_wake (o : objs) (q : nat) (r : aid) (w : sid) : objs :=
  sec_after_mutex (sec_wake o (qmx o q) r w) q r.

Lemma sec_wake_kernel o l a w :
  sigs (sec_wake o l a w) = sigs o /\ forall w', is_scheduled (sec_wake o l a w) w' = is_scheduled o w'.
Proof.
  unfold sec_wake, plain_unsubscribe. destruct (is_scheduled o w); split; reflexivity.
Qed.

Theorem qsim_mutex_wake_get o q wkm wkn s r :
  qlink o q wkm wkn s -> QPP.qinv s -> QP.rph s r = QP.RWaitMutex -> In r (LP.woken (QP.mutex s)) ->
  is_scheduled o (length (sigs o)) = false ->
  exists s' out wkn', QP.qstep s (QP.MutexWake r) = Some (s', out) /\
                      qlink (sec_mutex_wake o q r (wkm r)) q wkm wkn' s'.
Proof.
  intros K I Pr W Fr. pose proof (QPP.qL _ I) as IL. pose proof (QPP.qC _ I r) as C.
  unfold QPP.coupled in C. rewrite Pr in C.
  destruct (qsim_mutex_wake _ _ _ _ _ r K IL C W) as (m' & St & K1).
  cbn [QP.qstep]. rewrite Pr, St. unfold sec_mutex_wake.
  destruct (QPP.wake_effect _ _ _ St) as (_ & _ & Pi & _).
  assert (H : QPP.holding r (QP.set_mutex s m')).
  { apply QPP.holding_new_mutex; auto.
    - eapply LPP.inv_step; eauto.
    - intros b Nb. apply (QPP.step_frame _ _ _ St). exact Nb.
    - eapply QPP.grants_mono; eauto.
    - eapply QPP.nobody_inside_when_designated; eauto.
    - congruence. }
  destruct (sec_wake_kernel o (qmx o q) r (wkm r)) as [Es Ek].
  assert (Fr1 : is_scheduled (sec_wake o (qmx o q) r (wkm r))
                             (length (sigs (sec_wake o (qmx o q) r (wkm r)))) = false)
    by (rewrite Es, Ek; exact Fr).
  destruct (qsim_after_mutex _ _ _ _ _ r K1 H Fr1) as (s' & out & A & K2).
  exists s', out. eexists. split; [exact A | exact K2].
Qed.

(** ** PostponeDone: the postponement ended by its own wake-up [wp]: revoke, popleft, leave the mutex *)
Definition sec_postpone_done (o : objs) (q : nat) (wp : sid) : objs :=
  sec_exit (sec_pop (sec_revoke o wp) q) (qmx o q).

Lemma qmx_sec_pop o q : q < length (queues o) -> qmx (sec_pop o q) q = qmx o q.
Proof.
  intros H. unfold sec_pop. cbv zeta. destruct (q_buf (get_queue o q)); auto.
  unfold qmx. rewrite get_queue_set_queue; auto.
Qed.

Theorem qsim_postpone_done o q wkm wkn s r wp :
  qlink o q wkm wkn s -> QPP.qinv s -> QP.rph s r = QP.RPostpone ->
  exists x s', QP.qstep s (QP.PostponeDone r) = Some (s', QP.OGot x) /\
               qlink (sec_postpone_done o q wp) q wkm wkn s' /\
               exists zs, q_buf (get_queue o q) = Z.of_nat x :: zs.
Proof.
  intros K I Pr. pose proof (QPP.qL _ I) as IL. pose proof (QPP.qC _ I r) as C.
  unfold QPP.coupled in C. rewrite Pr in C. pose proof (QPP.qP _ I r Pr) as Nb.
  cbn [QP.qstep]. rewrite Pr. unfold QP.pop.
  destruct (QP.buf s) as [|x b] eqn:Eb; [congruence|].
  set (s1 := QP.qmk b _ _ _ _ _ _ _ _).
  assert (P1 : QP.pop r s = Some (x, s1)) by (unfold QP.pop; rewrite Eb; reflexivity).
  pose proof (qlink_revoke _ _ _ _ _ wp K) as K1.
  destruct (qsim_pop _ _ _ _ _ r x s1 K1 P1) as [K2 [zs Ez]].
  destruct (qsim_leave _ _ _ _ _ r K2 IL C) as (s' & El & K3).
  exists x, s'. split; [apply El|]. split.
  - unfold sec_postpone_done.
    rewrite qmx_sec_pop in K3 by (apply K1). exact K3.
  - exists zs. exact Ez.
Qed.

(** ** ItemWake: the item wake-up is delivered: unsubscribe, popleft (or StreamClosed), leave the mutex *)
Definition sec_item_wake (o : objs) (q : nat) (r : aid) (w : sid) : objs :=
  sec_exit (sec_pop (sec_item_unsub o q r w) q) (qmx o q).

Lemma qmx_item_unsub o q r w : qmx (sec_item_unsub o q r w) q = qmx o q.
Proof.
  unfold sec_item_unsub, plain_unsubscribe. destruct (is_scheduled o w); reflexivity.
Qed.

Lemma sec_pop_empty o q : q_buf (get_queue o q) = [] -> sec_pop o q = o.
Proof. intros H. unfold sec_pop. cbv zeta. now rewrite H. Qed.

Lemma mutex_n_unsubscribe r s : QP.mutex (QP.n_unsubscribe r s) = QP.mutex s.
Proof. destruct (QPP.n_unsub_shape r s) as (w & k & ->). reflexivity. Qed.

Theorem qsim_item_wake o q wkm wkn s r :
  qlink o q wkm wkn s -> QPP.qinv s -> QP.rph s r = QP.RWaitItem -> In r (QP.nwoken s) ->
  exists s' out, QP.qstep s (QP.ItemWake r) = Some (s', out) /\
                 qlink (sec_item_wake o q r (wkn r)) q wkm wkn s'.
Proof.
  intros K I Pr W. pose proof (QPP.qL _ I) as IL. pose proof (QPP.qC _ I r) as C.
  unfold QPP.coupled in C. rewrite Pr in C.
  cbn [QP.qstep]. rewrite Pr, (proj2 (LPP.mem_In _ _) W).
  assert (Ha : In r (QP.nwoken s ++ QP.nwait s)) by (apply in_or_app; auto).
  pose proof (qsim_item_unsub _ _ _ _ _ r K Ha) as K1.
  set (s1 := QP.n_unsubscribe r s) in *.
  pose proof (mutex_n_unsubscribe r s : QP.mutex s1 = QP.mutex s) as M1.
  unfold sec_item_wake. rewrite <- (qmx_item_unsub o q r (wkn r)).
  set (o1 := sec_item_unsub o q r (wkn r)) in *.
  destruct (QP.pop r s1) as [[x s2]|] eqn:P1.
  - destruct (qsim_pop _ _ _ _ _ r x s2 K1 P1) as [K2 _].
    assert (M2 : QP.mutex s2 = QP.mutex s).
    { unfold QP.pop in P1. destruct (QP.buf s1); [discriminate|]. injection P1 as _ <-. exact M1. }
    rewrite <- M2 in IL, C.
    destruct (qsim_leave _ _ _ _ _ r K2 IL C) as (s' & El & K3).
    exists s', (QP.OGot x). split; [apply El|].
    rewrite qmx_sec_pop in K3 by (apply K1). exact K3.
  - assert (Eb : q_buf (get_queue o1 q) = []).
    { unfold qlink in K1. rewrite (ql_buf _ _ _ _ _ _ _ _ _ K1). unfold QP.pop in P1.
      destruct (QP.buf s1); [reflexivity|discriminate]. }
    rewrite (sec_pop_empty _ _ Eb).
    rewrite <- M1 in IL, C.
    destruct (qsim_leave _ _ _ _ _ r K1 IL C) as (s' & El & K3).
    rewrite !El. destruct (QP.closed s1); do 2 eexists; (split; [reflexivity | exact K3]).
Qed.

(** ** Foreign: a signal hits the receiver at one of its three suspension points *)
Definition sec_qforeign (o : objs) (q : nat) (r : aid) (ph : QP.rphase) (w : sid) : objs :=
  match ph with
  | QP.RIdle => o
  | QP.RWaitMutex => sec_foreign o (qmx o q) r w             (* w: its mutex wake-up *)
  | QP.RPostpone => sec_exit (sec_revoke o w) (qmx o q)      (* w: the wake-up of the postponement *)
  | QP.RWaitItem => sec_exit (sec_item_unsub o q r w) (qmx o q)  (* w: its item wake-up *)
  end.

Theorem qsim_foreign o q wkm wkn s r wp :
  qlink o q wkm wkn s -> QPP.qinv s -> QP.rph s r <> QP.RIdle ->
  let w := match QP.rph s r with QP.RWaitMutex => wkm r | QP.RWaitItem => wkn r | _ => wp end in
  exists s', QP.qstep s (QP.Foreign r) = Some (s', QP.ORaised) /\
             qlink (sec_qforeign o q r (QP.rph s r) w) q wkm wkn s'.
Proof.
  intros K I Pr w. pose proof (QPP.qL _ I) as IL. pose proof (QPP.qC _ I r) as C.
  unfold QPP.coupled in C. cbn [QP.qstep]. subst w.
  destruct (QP.rph s r) eqn:E; [congruence| | |]; cbn [sec_qforeign].
  - destruct (qsim_mutex_foreign _ _ _ _ _ r K IL C) as (m' & St & K1). rewrite St.
    eexists. split; [reflexivity|]. exact K1.
  - pose proof (qlink_revoke _ _ _ _ _ wp K) as K1.
    destruct (qsim_leave _ _ _ _ _ r K1 IL C) as (s' & El & K2).
    exists s'. split; [apply El | exact K2].
  - assert (Ha : In r (QP.nwoken s ++ QP.nwait s)).
    { destruct (QPP.qN1 _ I _ E) as [(W1 & _)|(_ & W2 & _)]; [rewrite W1|rewrite W2];
        apply in_or_app; cbn; auto. }
    pose proof (qsim_item_unsub _ _ _ _ _ r K Ha) as K1.
    rewrite <- (mutex_n_unsubscribe r s) in IL, C.
    destruct (qsim_leave _ _ _ _ _ r K1 IL C) as (s' & El & K2).
    exists s'. split; [apply El|].
    rewrite qmx_item_unsub in K2. exact K2.
Qed.

(** * [Put] and [Close] are single primitives: what [exec] does with [queue_put] / [queue_close] *)
Theorem queue_put_runs k cur m q z c outer :
  exec (4 + k) cur m (MRun (queue_put q z)) c outer
  = if q_closed (get_queue (ob m) q)
    then exec (1 + k) cur m (MThrow (EStreamClosed q)) c outer
    else exec k cur (with_ob m (sec_put (ob m) q z)
                       (snd (fst (awake_next (set_queue (ob m) q ((get_queue (ob m) q)
                              <| q_buf := q_buf (get_queue (ob m) q) ++ [z] |>))
                              (q_notif (get_queue (ob m) q))))))
              (MRun postpone) c outer.
Proof.
  destruct c as [b st]. change (4 + k) with (S (2 + S k)). unfold queue_put. xstep.
  destruct (q_closed (get_queue (ob m) q)) eqn:Ec.
  - cbn [Nat.add]. unfold Do. erewrite exec_step by (apply step1_prim_err; rewrite Ec; reflexivity).
    xstep. reflexivity.
  - unfold sec_put. cbv zeta.
    destruct (awake_next _ (q_notif (get_queue (ob m) q))) as [[o2 ks] ?] eqn:A.
    erewrite exec_do by (rewrite Ec; cbv zeta; rewrite A; reflexivity).
    xstep. reflexivity.
Qed.

Theorem queue_close_runs k cur m q c outer :
  exec (4 + k) cur m (MRun (queue_close q)) c outer
  = exec k cur (with_ob m (sec_close (ob m) q)
                  (if q_closed (get_queue (ob m) q) then []
                   else snd (awake_all (set_queue (ob m) q ((get_queue (ob m) q) <| q_closed := true |>))
                                       (q_notif (get_queue (ob m) q)))))
         (MRun postpone) c outer.
Proof.
  destruct c as [b st]. change (4 + k) with (S (2 + S k)). unfold queue_close, sec_close. cbv zeta. xstep.
  destruct (q_closed (get_queue (ob m) q)) eqn:Ec.
  - erewrite exec_do by (rewrite Ec; reflexivity). xstep.
    rewrite after_prim_same. unfold with_ob. rewrite app_nil_r. destruct m; reflexivity.
  - erewrite exec_do by (rewrite Ec; reflexivity). xstep. reflexivity.
Qed.

Lemma qlink_alloc_queue o wkm wkn : qlink (alloc_queue o) (length (queues o)) wkm wkn QP.qinit.
Proof.
  unfold qlink. cbn [QP.buf QP.closed QP.mutex QP.nwait QP.nwoken QP.qinit].
  set (o1 := fst (alloc_notif o NPlain)).
  assert (A : alloc_queue o
              = (alloc_lock o1) <| queues := queues o ++ [{| q_buf := []; q_notif := length (notifs o);
                                                             q_mutex := length (locks o); q_closed := false |}] |>)
    by reflexivity.
  assert (G : get_queue (alloc_queue o) (length (queues o))
              = {| q_buf := []; q_notif := length (notifs o); q_mutex := length (locks o); q_closed := false |}).
  { unfold get_queue. rewrite A. cbn. rewrite app_nth2 by lia. rewrite Nat.sub_diag. reflexivity. }
  pose proof (link_alloc_lock o1 wkm) as L.
  assert (Ln : lnotif (alloc_queue o) (length (locks o)) = S (length (notifs o))).
  { unfold lnotif, get_lock. rewrite A. cbn. rewrite app_nth2 by lia. rewrite Nat.sub_diag. cbn.
    rewrite app_length. cbn. lia. }
  constructor; unfold qnt, qmx; rewrite ?G; cbn [q_buf q_notif q_mutex q_closed].
  - rewrite A. cbn. rewrite app_length. cbn. lia.
  - reflexivity.
  - reflexivity.
  - constructor; cbn; try (intros ? []); try constructor.
    + rewrite !app_length. cbn. lia.
    + unfold get_notif. cbn. rewrite <- app_assoc. rewrite app_nth2 by lia.
      rewrite Nat.sub_diag. reflexivity.
    + unfold get_notif. cbn. rewrite <- app_assoc. rewrite app_nth2 by lia.
      rewrite Nat.sub_diag. reflexivity.
  - eapply link_frame; [exact L | ..]; auto.
  - rewrite Ln. lia.
  - intros x c [].
Qed.

(** the object states a queue goes through: created, then changed by the sections above under the
    discipline of the protocol (the step is the one the simulation theorems produce), or by other code
    within the frame condition *)
Inductive qlinked (q : nat) : objs -> QP.qst -> Prop :=
| qk_init o wkm wkn : qlink o q wkm wkn QP.qinit -> qlinked q o QP.qinit
| qk_step o s t s' out o' :
    qlinked q o s -> QP.qstep s t = Some (s', out) ->
    (forall wkm wkn, qlink o q wkm wkn s -> exists wkm' wkn', qlink o' q wkm' wkn' s') ->
    qlinked q o' s'.

Theorem qlinked_sound q o s : qlinked q o s -> (exists wkm wkn, qlink o q wkm wkn s) /\ QP.qreachable s.
Proof.
  induction 1 as [o wkm wkn K | o s t s' out o' _ [(wkm & wkn & K) R] St Sim].
  - split; [eauto | constructor].
  - split; [eapply Sim; eauto | econstructor; eauto].
Qed.

Section QTransfer.
  Variables (o : objs) (q : nat) (wkm wkn : aid -> sid) (s : QP.qst).
  Hypothesis K : qlink o q wkm wkn s.
  Hypothesis R : QP.qreachable s.

  (** exactly-once, in order: the machine's buffer is exactly what was accepted and not yet delivered *)
  Theorem machine_exactly_once :
    map Z.of_nat (QP.accepted s) = map Z.of_nat (map snd (QP.delivered s)) ++ q_buf (get_queue o q).
  Proof.
    unfold qlink in K. rewrite (ql_buf _ _ _ _ _ _ _ _ _ K), <- map_app. f_equal.
    apply QPP.exactly_once. exact R.
  Qed.

  (** whoever is inside the read mutex is its recorded owner and a receiver past the acquisition *)
  Theorem machine_queue_mutex a n :
    LP.ph (QP.mutex s) a = LP.Inside n ->
    l_owner (get_lock o (qmx o q)) = Some a /\ (QP.rph s a = QP.RPostpone \/ QP.rph s a = QP.RWaitItem).
  Proof.
    intros P. pose proof (QPP.qreachable_inv _ R) as I. pose proof (QPP.qL _ I) as IL.
    destruct (LPP.inside_owner _ IL _ _ P) as (O & _). unfold qlink in K.
    rewrite (k_owner _ _ _ _ _ _ _ (ql_mutex _ _ _ _ _ _ _ _ _ K)). split; auto.
    pose proof (QPP.qC _ I a) as C. unfold QPP.coupled in C.
    destruct (QP.rph s a); auto; congruence.
  Qed.

  (** no lost wake-up: a receiver parked for an item while the machine's buffer is not empty or the queue
      is closed has its wake-up scheduled in the kernel *)
  Theorem machine_no_lost_wakeup r :
    QP.rph s r = QP.RWaitItem -> (q_buf (get_queue o q) <> [] \/ q_closed (get_queue o q) = true) ->
    is_scheduled o (wkn r) = true.
  Proof.
    intros P B. unfold qlink in K.
    assert (B' : QP.buf s <> [] \/ QP.closed s = true).
    { destruct B as [B|B]; [left|right].
      - intros E. apply B. rewrite (ql_buf _ _ _ _ _ _ _ _ _ K), E. reflexivity.
      - rewrite <- (ql_closed _ _ _ _ _ _ _ _ _ K). exact B. }
    destruct (QPP.no_lost_wakeup s r R P B') as [W _].
    apply (n_woken _ _ _ _ _ (ql_notif _ _ _ _ _ _ _ _ _ K)). exact W.
  Qed.

  (** a postponed receiver finds its item in the machine's buffer *)
  Theorem machine_postponed_gets_item r :
    QP.rph s r = QP.RPostpone -> exists z zs, q_buf (get_queue o q) = z :: zs.
  Proof.
    intros P. destruct (QPP.postponed_gets_item s r R P) as (x & s' & _ & B).
    unfold qlink in K. rewrite (ql_buf _ _ _ _ _ _ _ _ _ K), B. cbn. eauto.
  Qed.
End QTransfer.

Print Assumptions qsim_put.
Print Assumptions qsim_close.
Print Assumptions qsim_pop.
Print Assumptions qsim_item_wait.
Print Assumptions qsim_item_unsub.
Print Assumptions qsim_mutex_request.
Print Assumptions qsim_mutex_wake.
Print Assumptions qsim_mutex_foreign.
Print Assumptions qsim_mutex_exit.
Print Assumptions qsim_get.
Print Assumptions qsim_mutex_wake_get.
Print Assumptions qsim_postpone_done.
Print Assumptions qsim_item_wake.
Print Assumptions qsim_foreign.
Print Assumptions queue_put_runs.
Print Assumptions queue_close_runs.
Print Assumptions qlink_alloc_queue.
Print Assumptions qlinked_sound.
Print Assumptions machine_exactly_once.
Print Assumptions machine_queue_mutex.
Print Assumptions machine_no_lost_wakeup.
Print Assumptions machine_postponed_gets_item.

