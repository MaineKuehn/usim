(** Theorems about the wake-up protocol, the scope cancel signal and task cancellation:
    over ALL event sequences of a fully nondeterministic environment. *)
From Coq Require Import List Arith Lia.
From Usim Require Import ListFacts NotifProto.
Import ListNotations.

Definition winv (me : nat) (s : wst) : Prop :=
  w_late s = 0 /\ w_err s = false /\
  match w_ph s with
  | Idle => s = winit
  | Waiting => w_got s = [] /\ w_revk s = false /\
      ((w_kind s = Plain /\ w_list s = [me] /\ w_q s = [] /\ w_sched s = false) \/
       (w_list s = [] /\ w_q s = [me] /\ w_sched s = true))
  | Woken => w_got s = [me] /\ w_list s = [] /\ w_q s = [] /\ w_sched s = true /\ w_revk s = false
  | Left _ => w_list s = [] /\ (w_got s = [] \/ w_got s = [me]) /\
              (w_q s = [] \/ (w_revk s = true /\ w_q s = [me]))
  end.

Lemma wstep_inv me s e : winv me s -> winv me (wstep me s e).
Proof.
  (* the invariant fixes the lists in every phase but [Left]; then each event computes *)
  destruct s as [k l sc rv q g lt er p]. unfold winv. cbn. intros (-> & -> & H3).
  destruct p.
  - inversion H3; subst. destruct e as [[]| | | |]; cbn; auto 10.
  - destruct H3 as (-> & -> & [(-> & -> & -> & ->)|(-> & -> & ->)]); destruct e as [k'| | | |]; cbn; auto 10;
      unfold wfin; cbn; rewrite ?Nat.eqb_refl; try destruct k; cbn; auto 10.
  - destruct H3 as (-> & -> & -> & -> & ->). destruct e as [k'| | | |]; cbn; auto 10;
      unfold wfin; cbn; destruct k; cbn; auto 10.
  - destruct H3 as (-> & G & Q). destruct e as [k'| | | |]; cbn; auto.
    destruct Q as [->|(-> & ->)]; cbn; auto 10.
Qed.

Lemma wreach_inv me tr : winv me (wrun me winit tr).
Proof. apply (fold_left_inv (wstep me) (winv me) (wstep_inv me)). unfold winv. cbn. auto. Qed.

Lemma wstep_left me s e h :
  winv me s -> w_ph s = Left h ->
  w_got (wstep me s e) = w_got s /\ w_ph (wstep me s e) = Left h /\ wstep me s EAwake = s.
Proof.
  destruct s as [k l sc rv q g lt er p]. unfold winv. cbn. intros (H1 & H2 & H3) Hp. subst.
  destruct H3 as (? & ? & [?|(? & ?)]); subst; destruct e; cbn; auto.
Qed.

(** C03: after the waiter left its wait (normally, or by a foreign signal at any moment) the kernel never
    executes an activation carrying w again; at that moment every queued activation carrying w is revoked and
    w is not in the waiting list *)
Theorem never_after_leaving me tr h :
  let s := wrun me winit tr in
  w_ph s = Left h ->
  (w_list s = [] /\ (w_q s = [] \/ w_revk s = true)) /\
  forall tr', w_got (wrun me s tr') = w_got s /\ w_ph (wrun me s tr') = Left h.
Proof.
  intros s Hp. assert (Hi : winv me s) by apply wreach_inv. split.
  - destruct Hi as (_ & _ & Hi). rewrite Hp in Hi. intuition.
  - intros tr'. apply (fold_left_inv (wstep me) (fun x => winv me x /\ w_got x = w_got s /\ w_ph x = Left h)); auto.
    intros x e (Ix & G & P). destruct (wstep_left me x e h Ix P) as (H1 & H2 & _).
    split; [apply wstep_inv, Ix|]. split; congruence.
Qed.

(** w is thrown at most once, only while its waiter is waiting, and [_waiting.remove] never fails *)
Theorem at_most_once me tr :
  let s := wrun me winit tr in length (w_got s) <= 1 /\ w_late s = 0 /\ w_err s = false.
Proof.
  cbn. destruct (wreach_inv me tr) as (H1 & H2 & H3). split; [|auto].
  destruct (w_ph (wrun me winit tr)); [rewrite H3; cbn; lia | | |];
    [destruct H3 as (-> & _) | destruct H3 as (-> & _) | destruct H3 as (_ & [-> | ->] & _)]; cbn; lia.
Qed.

(** a waiter that left is not in the waiting list: a later __awake_next__/__awake_all__ cannot pick it
    ([EAwake] has no effect on w) *)
Theorem no_stale_waiter me tr h :
  let s := wrun me winit tr in w_ph s = Left h -> w_list s = [] /\ wstep me s EAwake = s.
Proof.
  intros s Hp. assert (Hi : winv me s) by apply wreach_inv. split.
  - destruct Hi as (_ & _ & Hi). rewrite Hp in Hi. tauto.
  - eapply (wstep_left me s EAwake h); eauto.
Qed.

(** every waiting-list entry, queued activation and delivery of w has the waiter that created w as target *)
Theorem delivered_only_to_owner me tr :
  let s := wrun me winit tr in Forall (eq me) (w_list s ++ w_q s ++ w_got s).
Proof.
  cbn. destruct (wreach_inv me tr) as (_ & _ & H3).
  destruct (w_ph (wrun me winit tr)).
  - rewrite H3. constructor.
  - destruct H3 as (-> & _ & [(_ & -> & -> & _)|(-> & -> & _)]); repeat constructor.
  - destruct H3 as (-> & -> & -> & _). repeat constructor.
  - destruct H3 as (-> & [-> | ->] & [-> | (_ & ->)]); repeat constructor.
Qed.

(** no lost wake-up at protocol level: a waiting w is either in the waiting list (a later awake reaches it) or
    carried by exactly one unrevoked queued activation *)
Theorem waiting_is_wakeable me tr :
  let s := wrun me winit tr in
  w_ph s = Waiting -> w_revk s = false /\ ((w_list s = [me] /\ w_q s = []) \/ (w_list s = [] /\ w_q s = [me])).
Proof.
  intros s Hp. destruct (wreach_inv me tr) as (_ & _ & H3). fold s in H3. rewrite Hp in H3. intuition.
Qed.

Definition cinv (s : cst) : Prop := c_late s = 0 /\ (c_in s = false -> c_int s = false /\ c_revk s = true).

Lemma cstep_inv s e : cinv s -> cinv (cstep s e).
Proof.
  destruct s as [i r q n g lt]. unfold cinv. cbn. intros [H1 H2]. subst.
  destruct e; cbn; auto; [destruct i | destruct q; [|destruct r; [|destruct n]]]; cbn; auto;
    try (split; auto; intros H; destruct (H2 H); discriminate).
  destruct (H2 eq_refl); discriminate.
Qed.

(** C03: after the owner left the scope block no activation carrying that scope's cancel signal executes:
    all queued ones are revoked and no new one can be scheduled *)
Theorem scope_cancel_never_after_exit tr :
  let s := crun cinit tr in
  c_late s = 0 /\
  (c_in s = false -> c_int s = false /\ c_revk s = true /\ forall tr', c_got (crun s tr') = c_got s).
Proof.
  intros s. assert (Hi : cinv s) by (apply (fold_left_inv cstep cinv cstep_inv); unfold cinv; cbn; split; [auto | discriminate]).
  split; [apply Hi|]. intros Hn. destruct (proj2 Hi Hn) as [H1 H2]. split; [auto|]. split; [auto|].
  intros tr'. apply (fold_left_inv cstep (fun x => cinv x /\ c_in x = false /\ c_got x = c_got s)); auto.
  intros x e (Ix & Nx & Gx). pose proof (cstep_inv x e Ix) as Ix'. destruct (proj2 Ix Nx) as [Jx Rx].
  split; [exact Ix'|]. rewrite <- Gx.
  (* not interruptable, revoked: nothing is scheduled and a popped activation is skipped *)
  destruct x as [i r q n g lt]. cbn in *. subst. destruct e; cbn; auto. destruct q; cbn; auto.
Qed.

Definition dead (c : crec) : Prop := k_revk c = true \/ k_queued c = false.

Definition tinv (s : tst) : Prop :=
  t_late s = 0 /\ (t_status s = TCreated -> t_cs s = []) /\ (t_result s = true -> Forall dead (t_cs s)) /\
  (t_done s = true -> t_result s = true) /\ (t_status s = TFinished -> t_result s = true).

Lemma Forall_upd {A} (P : A -> Prop) i f l : Forall P l -> (forall c, P c -> P (f c)) -> Forall P (upd i f l).
Proof.
  intros H Hf. revert i. induction H; intros [|i]; cbn; constructor; auto.
Qed.

Lemma revoke_all_dead l : Forall dead (revoke_all l).
Proof. unfold revoke_all. apply Forall_forall. intros c Hc. apply in_map_iff in Hc. destruct Hc as (x & <- & _). left. auto. Qed.

Lemma tstep_inv s e : tinv s -> tinv (tstep s e).
Proof.
  destruct s as [st rs dn cs g lt]. unfold tinv. cbn. intros (H1 & H2 & H3 & H4 & H5). subst.
  destruct e as [| | | |i]; cbn.
  - destruct rs; cbn; [auto 6|]. destruct st; cbn; repeat split; auto; try discriminate.
    intros _. rewrite H2; auto.
  - destruct st; cbn; auto 6. destruct rs; cbn; repeat split; auto; try discriminate.
  - destruct st; cbn; auto 6. repeat split; auto; try discriminate. intros _. apply revoke_all_dead.
  - destruct rs; cbn; [auto 6|]. destruct st; cbn; auto 6; repeat split; auto; try discriminate.
    + intros _. rewrite H2; auto.
    + intros _. apply revoke_all_dead.
  - destruct (nth_error cs i) as [c|] eqn:E; cbn; [|auto 6].
    destruct (k_queued c) eqn:Eq; cbn; [|auto 6].
    assert (Hu : Forall dead cs -> Forall dead (upd i (fun c => Build_crec (k_revk c) false) cs)).
    { intros H. apply Forall_upd; auto. intros. right. auto. }
    assert (Hn : cs <> []) by (intros ->; destruct i; discriminate).
    destruct (k_revk c) eqn:Er; cbn.
    + repeat split; auto. intros Hc. destruct (Hn (H2 Hc)).
    + repeat split; auto.
      * destruct dn; auto. exfalso. specialize (H3 (H4 eq_refl)). rewrite Forall_forall in H3.
        apply nth_error_In in E. destruct (H3 _ E); congruence.
      * intros Hc. destruct (Hn (H2 Hc)).
Qed.

(** C03: no CancelTask is thrown into a task that is done (finished, or cancelled/closed before it started):
    at that moment every queued cancellation is revoked and [cancel()] does not create new ones *)
Theorem task_cancel_never_after_done tr :
  let s := trun tinit tr in
  t_late s = 0 /\ (t_done s = true -> Forall dead (t_cs s) /\ tstep s TCancel = s).
Proof.
  intros s. assert (Hi : tinv s).
  { apply (fold_left_inv tstep tinv tstep_inv). unfold tinv. cbn. repeat split; auto; discriminate. }
  destruct Hi as (H1 & H2 & H3 & H4 & H5). split; auto. intros Hd. specialize (H4 Hd). split; auto.
  destruct s; cbn in *. subst. reflexivity.
Qed.
