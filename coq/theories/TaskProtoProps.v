(** C06 -- proofs about the task life cycle model of TaskProto.v.
    Everything is stated over ALL reachable states / ALL transition sequences: any payload behaviour,
    cancel / close / await by anyone at any point, any number of times. *)
From Coq Require Import List ZArith Lia String.
From Usim Require Import Tables TaskProto.
From UsimGen Require Import Generated GeneratedProps.
Import ListNotations.
Open Scope Z_scope.

Record Inv (s : state) : Prop := {
  inv_assert : assert_failed s = false;
  inv_done_result : done s = true <-> result s <> None;
  inv_done_sets : done_sets s = if done s then 1%nat else 0%nat;
  inv_phase_result : result s <> None -> phase_of s = Created \/ phase_of s = Finished;
  inv_finished : phase_of s = Finished -> result s <> None;
  inv_pending_result : result s <> None -> pending s = [];
  inv_pending_created : phase_of s = Created -> pending s = [];
  inv_pending_now : Forall (fun p => snd p = now s) (pending s);
  inv_observed : Forall (fun ao => snd ao = result s /\ snd ao <> None) (observed s);
  inv_reports : (reports s = [] /\ phase_of s <> Finished) \/
                (exists b, reports s = [b] /\ phase_of s = Finished);
  inv_reports_true : In true (reports s) -> exists e c, result s = Some (Error (ERaised e c));
  inv_ran : ran s = true -> phase_of s = Suspended \/ phase_of s = Finished
}.

Ltac inv_fields I := destruct I as [Ia Idr Ids Ipr Ifin Ipe Ipc Ipn Iob Irep Irt Iran].

Lemma inv_init : Inv init.
Proof.
  constructor; cbn; auto; try (intros; discriminate); try tauto.
  - split; [discriminate|congruence].
  - left. split; [reflexivity|discriminate].
Qed.

Lemma remove_tok_Forall P t l l' :
  remove_tok t l = Some l' -> Forall P l -> Forall P l'.
Proof.
  revert l'. induction l as [|[t' n] l IH]; intros l' E F; cbn in E; [discriminate|].
  inversion F; subst. destruct (t =? t').
  - injection E as <-. assumption.
  - destruct (remove_tok t l) as [r|]; [|discriminate]. injection E as <-.
    constructor; [assumption|]. apply IH; auto.
Qed.

Lemma remove_tok_In t l l' : remove_tok t l = Some l' -> exists n, In (t, n) l.
Proof.
  revert l'. induction l as [|[t' n] l IH]; intros l' E; cbn in E; [discriminate|].
  destruct (Z.eqb_spec t t').
  - subst. exists n. left; reflexivity.
  - destruct (remove_tok t l) as [r|]; [|discriminate].
    destruct (IH r eq_refl) as [m Hm]. exists m. right; exact Hm.
Qed.

Lemma remove_tok_some t l : (exists n, In (t, n) l) -> exists l', remove_tok t l = Some l'.
Proof.
  intros [n Hin]. induction l as [|[t' m] l IH]; [contradiction|]. cbn.
  destruct (Z.eqb_spec t t'); [eauto|]. destruct Hin as [H|H]; [congruence|].
  destruct (IH H) as [l' ->]. eauto.
Qed.

Lemma unsettled s : Inv s -> result s = None -> done s = false /\ observed s = [].
Proof.
  intros I E. split.
  - destruct (done s) eqn:D; [|reflexivity]. destruct (proj1 (inv_done_result s I) D E).
  - destruct (inv_observed s I) as [|x l [Hx Hn]]; [reflexivity|]. rewrite E in Hx. contradiction.
Qed.

Lemma result_none_unless s : Inv s -> phase_of s = Delaying \/ phase_of s = Suspended -> result s = None.
Proof.
  intros I H. destruct (result s) eqn:E; [|reflexivity]. exfalso.
  destruct (inv_phase_result s I) as [H'|H']; [congruence| |]; destruct H; congruence.
Qed.

Lemma reports_nil s : Inv s -> phase_of s <> Finished -> reports s = [].
Proof. intros I H. destruct (inv_reports s I) as [[R _]|[b [_ P]]]; [exact R|contradiction]. Qed.

Lemma ran_created s : Inv s -> phase_of s = Created -> ran s = false.
Proof. intros I Ph. destruct (ran s) eqn:Rn; [|reflexivity]. destruct (inv_ran s I Rn); congruence. Qed.

Lemma inv_finish s r failed :
  Inv s -> result s = None -> phase_of s <> Finished ->
  (failed = true -> exists e c, r = Error (ERaised e c)) ->
  Inv (finish (set_result s r) failed).
Proof.
  intros I E Hph Hf. destruct (unsettled s I E) as [Hd Ho]. assert (R := reports_nil s I Hph).
  inv_fields I.
  constructor; cbn; rewrite ?Hd, ?Ho, ?R; cbn; auto; try (intros; discriminate).
  - rewrite Ia. reflexivity.
  - split; [discriminate|reflexivity].
  - rewrite Ids, Hd. reflexivity.
  - right. eauto.
  - intros [H|[]]. subst failed. destruct (Hf eq_refl) as [e [c ->]]. eauto.
Qed.

(** the runner suspends again: inside the payload, or (first activation of a delayed task) in the
    wrapper's own delay, where no payload statement has run *)
Lemma inv_suspend s p : Inv s -> result s = None -> phase_of s <> Finished ->
  p <> Created -> p <> Finished -> (ran s = true -> p = Suspended) -> Inv (set_phase s p).
Proof.
  intros I E Hph Hc Hf Hr. assert (R := reports_nil s I Hph). inv_fields I.
  constructor; cbn; auto; intros; congruence.
Qed.

Lemma inv_react s : Inv s -> phase_of s <> Finished -> result s = None ->
  forall r tok s', react s r tok = Some s' ->
  Inv s' /\ (phase_of s' = Suspended \/ phase_of s' = Finished).
Proof.
  intros I Hph E r tok s' R.
  destruct r; cbn in R; try discriminate.
  - injection R as <-. split; [apply inv_suspend; auto; discriminate|left; reflexivity].
  - injection R as <-. split; [apply inv_finish; auto; discriminate|right; reflexivity].
  - injection R as <-. split; [apply inv_finish; eauto|right; reflexivity].
  - destruct tok; [|discriminate]. injection R as <-.
    split; [apply inv_finish; auto; discriminate|right; reflexivity].
Qed.

Lemma inv_ran_ok s : Inv s -> phase_of s = Suspended \/ phase_of s = Finished -> Inv (set_ran s).
Proof. intros I H. inv_fields I. constructor; cbn; auto. Qed.

Lemma react_set_ran s r tok : react (set_ran s) r tok = option_map set_ran (react s r tok).
Proof. destruct r, tok; reflexivity. Qed.

(** the first payload statement runs: [ran] is set, and the runner is past the wrapper's part *)
Lemma inv_set_ran s : Inv s -> phase_of s <> Finished -> result s = None ->
  forall r tok s', react (set_ran s) r tok = Some s' -> Inv s'.
Proof.
  intros I Hph E r tok s' R. rewrite react_set_ran in R.
  destruct (react s r tok) as [s1|] eqn:R1; [|discriminate]. injection R as <-.
  destruct (inv_react s I Hph E r tok s1 R1) as [I1 P1]. apply inv_ran_ok; assumption.
Qed.

Lemma inv_set_pending s p :
  Inv s -> result s = None -> phase_of s <> Created ->
  Forall (fun q => snd q = now s) p -> Inv (set_pending s p).
Proof.
  intros I E Hc F. inv_fields I.
  constructor; cbn; auto; try (intros; congruence).
Qed.

(** cancel()/__close__() of a task whose runner is still CORO_CREATED: result and done at once *)
Lemma inv_mark_created s r :
  Inv s -> result s = None -> phase_of s = Created -> (forall e c, r <> Error (ERaised e c)) ->
  Inv (set_done (set_result s r)).
Proof.
  intros I E Ph Hr. destruct (unsettled s I E) as [Hd Ho]. inv_fields I.
  constructor; cbn; rewrite ?Hd, ?Ho; auto; try (intros; discriminate).
  - rewrite Ia; reflexivity.
  - split; [discriminate|reflexivity].
  - rewrite Ids, Hd; reflexivity.
  - rewrite E in Irt. intros H. destruct (Irt H) as [e [c H']]. discriminate.
Qed.

(** the first activation of a task marked like that: `if self._result is not None:` report and return *)
Lemma inv_first_marked s : Inv s -> result s <> None -> phase_of s = Created ->
  Inv (set_phase (report s false) Finished).
Proof.
  intros I E Ph. assert (R : reports s = []) by (apply (reports_nil s I); congruence). inv_fields I.
  constructor; cbn; rewrite ?R; auto; try (intros; discriminate).
  - right. eauto.
  - intros [H|[]]. discriminate.
Qed.

Definition genuine (o : op) : Prop :=
  match o with
  | Start _ (RRaise _ _) | Resume (RRaise _ _) | Deliver _ (RRaise _ _) | Close _ (CRaise _ _) => True
  | _ => False
  end.

(** The four kinds of transition of a state satisfying [Inv], told by what they do to the fields the
    theorems below speak of. *)
Inductive shape (s : state) (o : op) (s' : state) : Prop :=
| sh_keep :      (* environment and loop bookkeeping: a cancellation scheduled, awaits, time; or nothing *)
    result s' = result s -> phase_of s' = phase_of s -> ran s' = ran s ->
    reports s' = reports s -> incl (observed s) (observed s') -> shape s o s'
| sh_suspend :   (* the runner of an unsettled task suspends again *)
    result s = None -> result s' = None -> phase_of s' <> Created ->
    reports s' = reports s -> observed s' = observed s -> shape s o s'
| sh_settle r :  (* the first result is stored; unless the runner is still Created, it finishes and reports *)
    result s = None -> result s' = Some r -> observed s' = observed s ->
    reports s' = reports s \/ (exists b, reports s' = b :: reports s /\ (b = true -> genuine o)) ->
    shape s o s'
| sh_first :     (* first activation of a task that was settled while its runner was Created *)
    result s <> None -> result s' = result s -> ran s' = ran s ->
    reports s' = false :: reports s -> observed s' = observed s -> shape s o s'.

Lemma shape_same s o s' : result s' = result s -> phase_of s' = phase_of s ->
  ran s' = ran s -> reports s' = reports s -> observed s' = observed s -> shape s o s'.
Proof. intros ? ? ? ? O. apply sh_keep; auto. rewrite O. apply incl_refl. Qed.

Lemma shape_finish s s0 o r f : result s = None -> reports s0 = reports s -> observed s0 = observed s ->
  (f = true -> genuine o) -> shape s o (finish (set_result s0 r) f).
Proof.
  intros E R O G. apply sh_settle with r; auto. right. exists f. split; [cbn; congruence|exact G].
Qed.

(** [s0] is [s] with [ran] set or a pending cancellation taken out *)
Lemma react_shape s s0 o r tok s' :
  result s = None -> result s0 = None -> reports s0 = reports s -> observed s0 = observed s ->
  (match r with RRaise _ _ => True | _ => False end -> genuine o) ->
  react s0 r tok = Some s' -> shape s o s'.
Proof.
  intros E E0 R O G Re. destruct r; cbn in Re; try discriminate.
  - injection Re as <-. apply sh_suspend; auto. discriminate.
  - injection Re as <-. apply shape_finish; auto. discriminate.
  - injection Re as <-. apply shape_finish; auto.
  - destruct tok; [|discriminate]. injection Re as <-. apply shape_finish; auto. discriminate.
Qed.

Lemma step_sound s o s' : Inv s -> step s o = Some s' -> Inv s' /\ shape s o s'.
Proof.
  intros I St.
  assert (Run := result_none_unless s I).
  destruct o; cbn in St.
  - (* Start *)
    destruct (phase_of s) eqn:Ph; try discriminate.
    destruct (result s) as [r0|] eqn:E; [|destruct delayed].
    + destruct (is_rnone r); [|discriminate]. injection St as <-.
      split; [apply inv_first_marked; congruence|apply sh_first; auto; congruence].
    + destruct (is_rnone r); [|discriminate]. injection St as <-.
      split; [|apply sh_suspend; auto; discriminate].
      apply inv_suspend; auto; try congruence. rewrite (ran_created s I Ph). discriminate.
    + split; [apply (inv_set_ran s I) with r None; congruence|].
      apply (react_shape s (set_ran s) _ r None); auto.
  - (* Resume *)
    destruct (phase_of s) eqn:Ph; try discriminate.
    + split; [apply (inv_set_ran s I) with r None; auto; congruence|].
      apply (react_shape s (set_ran s) _ r None); auto.
    + split; [apply (inv_react s I) with r None; auto; congruence|].
      apply (react_shape s s _ r None); auto.
  - (* Cancel *)
    destruct (result s) as [r0|] eqn:E.
    { injection St as <-. split; [exact I|apply shape_same; reflexivity]. }
    destruct (phase_of s) eqn:Ph; injection St as <-.
    { split; [apply inv_mark_created; auto; discriminate|].
      apply sh_settle with (Error (ECancelled tok)); auto. }
    all: split; [|apply shape_same; reflexivity].
    all: apply inv_set_pending; auto; [congruence|].
    all: apply Forall_app; split; [apply (inv_pending_now s I)|repeat constructor].
  - (* Deliver *)
    destruct (remove_tok tok (pending s)) as [p'|] eqn:Rm; [|discriminate].
    assert (E : result s = None) by (apply Run; destruct (phase_of s); try discriminate; auto).
    assert (Ip' : Inv (set_pending s p')).
    { apply inv_set_pending; auto.
      - intros Ph. rewrite Ph in St. discriminate.
      - apply (remove_tok_Forall _ _ _ _ Rm), (inv_pending_now s I). }
    destruct (phase_of s) eqn:Ph; try discriminate.
    + destruct (is_rnone r); [|discriminate]. injection St as <-.
      split; [apply inv_finish; auto; cbn; [congruence|discriminate]|].
      apply shape_finish; auto. discriminate.
    + split; [apply (inv_react _ Ip') with r (Some tok); auto; cbn; congruence|].
      apply (react_shape s (set_pending s p') _ r (Some tok)); auto.
  - (* Close *)
    destruct (result s) as [r0|] eqn:E.
    { destruct (is_cpass c); [|discriminate]. injection St as <-.
      split; [exact I|apply shape_same; reflexivity]. }
    destruct (phase_of s) eqn:Ph.
    + destruct (is_cpass c); [|discriminate]. injection St as <-.
      split; [apply inv_mark_created; auto; discriminate|apply sh_settle with (Error (EClosed reason)); auto].
    + destruct (is_cpass c); [|discriminate]. injection St as <-.
      split; [apply inv_finish; auto; [congruence|discriminate]|apply shape_finish; auto; discriminate].
    + (* all three clauses end in [finish]; a reason stored first is overwritten by what the payload
         raised while unwinding *)
      assert (Hph : phase_of s <> Finished) by congruence.
      destruct c; injection St as <-;
        (split; [apply (inv_finish s); eauto; discriminate|apply shape_finish; cbn; auto; discriminate]).
    + destruct (inv_finished s I Ph E).
  - (* AwaitStart *)
    injection St as <-. split; [inv_fields I; constructor; assumption|apply shape_same; reflexivity].
  - (* AwaitComplete *)
    destruct (done s) eqn:D; [|discriminate].
    destruct (remove_one a (waiting s)); [|discriminate]. injection St as <-. rewrite <- D.
    split; [|apply sh_keep; auto; apply incl_tl, incl_refl].
    inv_fields I. constructor; cbn; auto.
    constructor; [|assumption]. split; [reflexivity|]. apply Idr, D.
  - (* Tick *)
    destruct (pending s) eqn:P; [|discriminate].
    destruct (phase_of s) eqn:Ph; try discriminate; injection St as <-; rewrite <- Ph;
      (split; [inv_fields I; constructor; cbn; auto using Forall_nil|apply shape_same; auto]).
Qed.

Theorem step_inv : forall s o s', Inv s -> step s o = Some s' -> Inv s'.
Proof. intros s o s' I St. apply (step_sound s o s' I St). Qed.

Lemma step_shape s o s' : Inv s -> step s o = Some s' -> shape s o s'.
Proof. intros I St. apply (step_sound s o s' I St). Qed.

(** The induction behind every statement about [run]: [Inv], and a reflexive and transitive relation
    [R] between a state and a later one that every transition from a state satisfying [Inv] respects. *)
Lemma run_ind (R : state -> state -> Prop) :
  (forall s, R s s) -> (forall a b c, R a b -> R b c -> R a c) ->
  (forall s o s', Inv s -> step s o = Some s' -> R s s') ->
  forall ops s s', Inv s -> run s ops = Some s' -> Inv s' /\ R s s'.
Proof.
  intros Rr Rt H. induction ops as [|o ops IH]; intros s s' I Rn; cbn in Rn.
  - injection Rn as <-. auto.
  - destruct (step s o) as [s1|] eqn:St; [|discriminate].
    destruct (IH s1 s' (step_inv s o s1 I St) Rn) as [I' R']. eauto.
Qed.

Theorem run_inv : forall ops s s', Inv s -> run s ops = Some s' -> Inv s'.
Proof. intros ops s s' I R. apply (run_ind (fun _ _ => True)) with (ops := ops) (s := s); auto. Qed.

Theorem reachable_inv : forall s, reachable s -> Inv s.
Proof. intros s [ops R]. exact (run_inv ops init s inv_init R). Qed.

Theorem status_step : forall s o s', Inv s -> step s o = Some s' ->
  status_of s' = status_of s \/
  (terminal (status_of s) = false /\ (rank (status_of s) < rank (status_of s'))%nat).
Proof.
  intros s o s' I St. unfold status_of.
  destruct (step_shape s o s' I St) as [E P _ _ _|E E' P _ _|r E E' _ _|E E' _ _ _].
  - left. rewrite E, P. reflexivity.
  - rewrite E, E'. destruct (phase_of s'); [contradiction| | |]; destruct (phase_of s); auto.
  - rewrite E, E'. right. destruct (phase_of s), r as [v|[t|x|e []]]; cbn; auto.
  - left. rewrite E'. destruct (result s); [reflexivity|contradiction].
Qed.

Theorem status_forward_only : forall ops s s', Inv s -> run s ops = Some s' ->
  (rank (status_of s) <= rank (status_of s'))%nat /\
  (terminal (status_of s) = true -> status_of s' = status_of s).
Proof.
  intros ops s s' I R.
  apply (run_ind (fun s s' => (rank (status_of s) <= rank (status_of s'))%nat /\
                              (terminal (status_of s) = true -> status_of s' = status_of s)))
    with (ops := ops) (s := s); auto.
  - intros a b c [L1 T1] [L2 T2]. split; [lia|]. intros T. rewrite <- (T1 T). apply T2. rewrite (T1 T). exact T.
  - intros s0 o s1 I0 St. destruct (status_step s0 o s1 I0 St) as [->|[T L]]; [auto|].
    split; [lia|]. rewrite T. discriminate.
Qed.

(** the status of a task is a function of its state: at most one of the three final states;
    and a final state is never left *)
Corollary status_final_is_final : forall s ops s', reachable s -> run s ops = Some s' ->
  terminal (status_of s) = true -> status_of s' = status_of s.
Proof. intros s ops s' Rs R. apply (status_forward_only ops s s' (reachable_inv s Rs) R). Qed.

Theorem done_once : forall s, reachable s ->
  assert_failed s = false /\ (done_sets s <= 1)%nat /\ (done s = true <-> done_sets s = 1%nat).
Proof.
  intros s Rs. assert (I := reachable_inv s Rs). inv_fields I.
  split; [assumption|]. rewrite Ids. destruct (done s); split; try lia; split; auto; discriminate.
Qed.

(** "settled": a result is stored *)

Lemma settled_step s o s' r : Inv s -> result s = Some r -> step s o = Some s' ->
  result s' = Some r /\ ran s' = ran s.
Proof.
  intros I E St.
  destruct (step_shape s o s' I St) as [E' _ Rn _ _|E' _ _ _ _|? E' _ _ _|_ E' Rn _ _];
    split; congruence.
Qed.

Lemma settled_run ops s s' r : Inv s -> result s = Some r -> run s ops = Some s' ->
  Inv s' /\ result s' = Some r /\ done s' = true /\ ran s' = ran s.
Proof.
  intros I E R.
  destruct (run_ind (fun s s' => result s = Some r -> result s' = Some r /\ ran s' = ran s))
    with (ops := ops) (s := s) (s' := s') as [I' H]; auto.
  - intros a b c H1 H2 Ea. destruct (H1 Ea) as [Eb R1]. destruct (H2 Eb) as [Ec R2]. split; congruence.
  - intros s0 o s1 I0 St E0. exact (settled_step s0 o s1 r I0 E0 St).
  - destruct (H E) as [E' Rn]. split; [exact I'|]. split; [exact E'|]. split; [|exact Rn].
    apply (inv_done_result s' I'). congruence.
Qed.

Theorem result_stable_after_done : forall ops s s', Inv s -> done s = true -> run s ops = Some s' ->
  result s' = result s /\ done s' = true.
Proof.
  intros ops s s' I D R. destruct (result s) as [r|] eqn:E.
  - destruct (settled_run ops s s' r I E R) as (_ & E' & D' & _). auto.
  - destruct (proj1 (inv_done_result s I) D E).
Qed.

(** first successful cancellation wins: later cancels / closes do not change the outcome *)
Theorem first_cancellation_wins : forall s tok ops s', reachable s ->
  result s = Some (Error (ECancelled tok)) -> run s ops = Some s' ->
  result s' = Some (Error (ECancelled tok)).
Proof. intros s tok ops s' Rs E R. apply (settled_run ops s s' _ (reachable_inv s Rs) E R). Qed.

(** an await completes only on a done task and reads the stored outcome *)
Theorem await_reads_result : forall s a s', step s (AwaitComplete a) = Some s' ->
  done s = true /\ observed s' = (a, result s) :: observed s /\ result s' = result s.
Proof.
  intros s a s' St. cbn in St. destruct (done s); [|discriminate].
  destruct (remove_one a (waiting s)); [|discriminate]. injection St as <-. cbn. auto.
Qed.

Lemma observed_agree s a o : Inv s -> In (a, o) (observed s) -> o = result s /\ exists r, o = Some r.
Proof.
  intros I Hin. destruct (proj1 (Forall_forall _ _) (inv_observed s I) (a, o) Hin) as [H1 H2]. cbn in *.
  split; [assumption|]. destruct o; [eauto|contradiction].
Qed.

Theorem awaiters_agree : forall s, reachable s ->
  forall a o, In (a, o) (observed s) -> o = result s /\ exists r, o = Some r.
Proof. intros s Rs a o. apply (observed_agree s a o (reachable_inv s Rs)). Qed.

Corollary awaiters_same : forall s, reachable s ->
  forall a1 o1 a2 o2, In (a1, o1) (observed s) -> In (a2, o2) (observed s) -> o1 = o2.
Proof.
  intros s Rs a1 o1 a2 o2 H1 H2.
  destruct (awaiters_agree s Rs a1 o1 H1) as [-> _]. destruct (awaiters_agree s Rs a2 o2 H2) as [-> _].
  reflexivity.
Qed.

Lemma observed_grows_step s o s' : Inv s -> step s o = Some s' -> incl (observed s) (observed s').
Proof.
  intros I St. destruct (step_shape s o s' I St) as [_ _ _ _ O|_ _ _ _ O|? _ _ O _|_ _ _ _ O];
    [exact O|rewrite O; apply incl_refl..].
Qed.

(** what an awaiter saw stays the outcome of the task forever *)
Theorem awaiters_agree_forever : forall ops s s' a o, reachable s -> In (a, o) (observed s) ->
  run s ops = Some s' -> In (a, o) (observed s') /\ o = result s'.
Proof.
  intros ops s s' a o Rs Hin R.
  destruct (run_ind (fun s s' => incl (observed s) (observed s'))) with (ops := ops) (s := s) (s' := s')
    as [I' O]; auto using incl_refl, reachable_inv.
  - intros x y z. apply incl_tran.
  - exact observed_grows_step.
  - split; [exact (O _ Hin)|]. apply (observed_agree s' a o I' (O _ Hin)).
Qed.

(** an awaiter of a done task can always complete (it is never left hanging) *)
Theorem await_completes_when_done : forall s a, done s = true -> In a (waiting s) ->
  exists s', step s (AwaitComplete a) = Some s'.
Proof.
  intros s a D Hin. cbn. rewrite D.
  assert (H : exists w, remove_one a (waiting s) = Some w).
  { induction (waiting s) as [|b l IH]; [contradiction|]. cbn.
    destruct (Z.eqb_spec a b); [eauto|]. destruct Hin as [->|Hin]; [contradiction|].
    destruct (IH Hin) as [w ->]. eauto. }
  destruct H as [w ->]. eauto.
Qed.

Theorem cancel_created_runs_nothing : forall s tok, reachable s ->
  phase_of s = Created -> result s = None ->
  exists s1, step s (Cancel tok) = Some s1 /\
    result s1 = Some (Error (ECancelled tok)) /\ done s1 = true /\ status_of s1 = StCancelled /\
    forall ops s2, run s1 ops = Some s2 ->
      ran s2 = false /\ result s2 = Some (Error (ECancelled tok)) /\ ~ In true (reports s2).
Proof.
  intros s tok Rs Ph E. assert (I := reachable_inv s Rs).
  set (s1 := set_done (set_result s (Error (ECancelled tok)))).
  assert (St : step s (Cancel tok) = Some s1) by (cbn; rewrite E, Ph; reflexivity).
  exists s1. split; [exact St|]. do 3 (split; [reflexivity|]). intros ops s2 R.
  destruct (settled_run ops s1 s2 _ (step_inv s _ s1 I St) eq_refl R) as (I2 & E2 & _ & Rn).
  split; [|split].
  - rewrite Rn. exact (ran_created s I Ph).
  - exact E2.
  - intros Ht. destruct (inv_reports_true s2 I2 Ht) as [e [c E3]]. rewrite E3 in E2. discriminate.
Qed.

(** the first activation of such a task only closes the payload and reports failed=False *)
Theorem cancelled_created_first_activation : forall s d r s', reachable s ->
  phase_of s = Created -> result s <> None -> step s (Start d r) = Some s' ->
  r = RNone /\ phase_of s' = Finished /\ reports s' = [false] /\ ran s' = false /\
  result s' = result s /\ done_sets s' = done_sets s.
Proof.
  intros s d r s' Rs Ph E St. assert (I := reachable_inv s Rs).
  cbn in St. rewrite Ph in St. destruct (result s) eqn:Er; [|contradiction].
  destruct r; try discriminate. injection St as <-. cbn.
  rewrite (reports_nil s I) by congruence. rewrite (ran_created s I Ph). repeat split. exact Er.
Qed.

(** cancel() of an unfinished, started task changes nothing but the queue of the current time step *)
Theorem cancel_schedules_now : forall s tok, result s = None -> phase_of s <> Created ->
  step s (Cancel tok) = Some (set_pending s (pending s ++ [(tok, now s)])%list).
Proof. intros s tok E Ph. cbn. rewrite E. destruct (phase_of s); [contradiction| | |]; reflexivity. Qed.

(** every pending CancelTask was scheduled in the current time step ... *)
Theorem pending_same_step : forall s, reachable s ->
  forall tok t, In (tok, t) (pending s) -> t = now s.
Proof.
  intros s Rs tok t Hin.
  apply (proj1 (Forall_forall _ _) (inv_pending_now s (reachable_inv s Rs)) (tok, t) Hin).
Qed.

(** ... because time cannot advance while one is pending (or before the first activation) *)
Theorem no_tick_while_pending : forall s, pending s <> [] -> step s Tick = None.
Proof. intros s H. cbn. destruct (pending s); [contradiction|reflexivity]. Qed.

Theorem no_tick_before_start : forall s, phase_of s = Created -> step s Tick = None.
Proof. intros s H. cbn. rewrite H. destruct (pending s); reflexivity. Qed.

(** a pending CancelTask can be raised inside the suspended task right away *)
Theorem deliver_enabled : forall s tok t, reachable s -> In (tok, t) (pending s) ->
  exists s', step s (Deliver tok (match phase_of s with Delaying => RNone | _ => RPropagate end)) = Some s'.
Proof.
  intros s tok t Rs Hin. assert (I := reachable_inv s Rs).
  destruct (remove_tok_some tok (pending s) (ex_intro _ t Hin)) as [l' Rm].
  cbn. rewrite Rm.
  assert (Hne : pending s <> []) by (intros C; rewrite C in Hin; contradiction).
  destruct (phase_of s) eqn:Ph; cbn; eauto.
  - destruct (Hne (inv_pending_created s I Ph)).
  - destruct (Hne (inv_pending_result s I (inv_finished s I Ph))).
Qed.

(** a CancelTask that propagates out of the payload becomes the outcome TaskCancelled(task, token),
    reported with failed=False, in the time step in which cancel() was called *)
Theorem cancel_suspended_same_step : forall s tok r s', reachable s ->
  step s (Deliver tok r) = Some s' ->
  (exists t, In (tok, t) (pending s) /\ t = now s /\ now s' = now s) /\
  ((phase_of s = Suspended /\ r = RPropagate) \/ phase_of s = Delaying ->
   result s' = Some (Error (ECancelled tok)) /\ done s' = true /\ status_of s' = StCancelled /\
   reports s' = [false] /\ pending s' = [] /\ phase_of s' = Finished /\ ran s' = ran s).
Proof.
  intros s tok r s' Rs St. assert (I := reachable_inv s Rs). cbn in St.
  destruct (remove_tok tok (pending s)) as [p'|] eqn:Rm; [|discriminate].
  split.
  - destruct (remove_tok_In _ _ _ Rm) as [t Hin]. exists t. split; [assumption|].
    split; [exact (pending_same_step s Rs tok t Hin)|].
    destruct (phase_of s); try discriminate.
    + destruct (is_rnone r); [|discriminate]. injection St as <-. reflexivity.
    + destruct r; try discriminate; injection St as <-; reflexivity.
  - (* both ways end in the same state *)
    intros H.
    assert (S' : s' = finish (set_result (set_pending s p') (Error (ECancelled tok))) false /\
                 phase_of s <> Finished).
    { destruct H as [[Ph ->]|Ph]; rewrite Ph in St; [|destruct (is_rnone r); [|discriminate]];
        injection St as <-; (split; [reflexivity|congruence]). }
    destruct S' as [-> Ph]. cbn. rewrite (reports_nil s I Ph). auto 10.
Qed.

Theorem cancel_finished_noop : forall s tok, result s <> None -> step s (Cancel tok) = Some s.
Proof. intros s tok E. cbn. destruct (result s); [reflexivity|contradiction]. Qed.

Theorem close_finished_noop : forall s reason, result s <> None -> step s (Close reason CPass) = Some s.
Proof. intros s reason E. cbn. destruct (result s); [reflexivity|contradiction]. Qed.

Theorem report_step : forall s o s', Inv s -> step s o = Some s' ->
  reports s' = reports s \/ (exists b, reports s' = b :: reports s /\ (b = true -> genuine o)).
Proof.
  intros s o s' I St. destruct (step_shape s o s' I St) as [_ _ _ R _|_ _ _ R _|? _ _ _ R|_ _ _ R _]; auto.
  right. exists false. split; [exact R|discriminate].
Qed.

(** cancel() never reports anything by itself; a cancellation / closure that goes through reports
    failed=False (see cancel_suspended_same_step); __child_finished__ is called exactly once per task *)
Theorem cancel_never_fails_parent : forall s, reachable s ->
  (forall tok s', step s (Cancel tok) = Some s' -> reports s' = reports s) /\
  (reports s = [] /\ phase_of s <> Finished \/
   reports s = [false] /\ phase_of s = Finished \/
   reports s = [true] /\ phase_of s = Finished /\ exists e c, result s = Some (Error (ERaised e c))) /\
  (forall x, result s = Some (Error (ECancelled x)) \/ result s = Some (Error (EClosed x)) \/
             result s = Some (Value x) -> ~ In true (reports s)).
Proof.
  intros s Rs. assert (I := reachable_inv s Rs). split; [|split].
  - intros tok s' St. cbn in St.
    destruct (result s); [|destruct (phase_of s)]; injection St as <-; reflexivity.
  - destruct (inv_reports s I) as [[R P]|[b [R P]]]; [left; auto|]. right.
    destruct b; [right|left; auto]. split; [assumption|]. split; [assumption|].
    apply (inv_reports_true s I). rewrite R. left; reflexivity.
  - intros x H Ht. destruct (inv_reports_true s I Ht) as [e [c E]].
    destruct H as [H|[H|H]]; rewrite E in H; discriminate.
Qed.

Theorem status_in_table : forall st, In (status_name st, status_code_str st) gen_taskstate.
Proof. rewrite taskstate_agrees. destruct st; cbn; tauto. Qed.

Theorem finished_in_table : In ("FINISHED", "CANCELLED+FAILED+SUCCESS")%string gen_taskstate /\
  forall st, terminal st = true <-> In (status_name st) ["CANCELLED"; "FAILED"; "SUCCESS"]%string.
Proof.
  rewrite taskstate_agrees. split; [cbn; tauto|].
  destruct st; cbn; split; intros H; try discriminate; try tauto;
    repeat (destruct H as [H|H]; try discriminate H); contradiction.
Qed.

(** the hypotheses are satisfiable: concrete histories *)

Example cancel_while_suspended :
  option_map project
    (run init [Start false RSuspend; AwaitStart 1; Cancel 7; Cancel 8; Deliver 7 RPropagate;
               AwaitComplete 1; Tick; AwaitStart 2; AwaitComplete 2; Cancel 9])
  = Some [4; 2; 7; 1; 1; 1; 1; 0; 2; 2; 7].
Proof. reflexivity. Qed.

Example cancel_before_start :
  option_map project (run init [AwaitStart 1; Cancel 3; Start false RNone; AwaitComplete 1])
  = Some [4; 2; 3; 1; 1; 0; 1; 0; 1; 2; 3].
Proof. reflexivity. Qed.

Example genuine_failure :
  option_map project (run init [Start true RNone; Tick; Resume RSuspend; Cancel 5; Deliver 5 (RRaise 9 false)])
  = Some [8; 4; 9; 1; 1; 1; 0; 1; 0; 0; 0].
Proof. reflexivity. Qed.

Example closed_while_suspended :
  option_map project (run init [Start false RSuspend; Tick; Close 1 CPass; Cancel 4])
  = Some [4; 3; 1; 1; 1; 1; 1; 0; 0; 0; 0].
Proof. reflexivity. Qed.

Example tick_blocked_by_pending_cancel :
  run init [Start false RSuspend; Cancel 7; Tick] = None.
Proof. reflexivity. Qed.

Example reachable_suspended : exists s, reachable s /\ phase_of s = Suspended /\ result s = None.
Proof. eexists. split; [exists [Start false RSuspend]; reflexivity|]. split; reflexivity. Qed.

Example reachable_created : reachable init /\ phase_of init = Created /\ result init = None.
Proof. split; [exists []; reflexivity|]. split; reflexivity. Qed.
