(** Stable insertion into a list sorted by date: behind every entry with the same or an earlier date.  This is the
    order in which the event loop serves activations (by date, FIFO within a time step), on an agenda kept as one flat
    list: [FlowProto.push] and [SimEvent.ins] are instances, by conversion.  (Kernel.v keeps buckets per date instead.) *)
From Coq Require Import ZArith List Sorted Permutation Lia.
Import ListNotations.
Open Scope Z_scope.

Section TimedInsert.
  Context {B : Type}.
  Implicit Types (l : list (Z * B)) (x : B).

  (* [B] is bound outside the [fix], so that [@tins B] is convertible with a monomorphic copy *)
  Fixpoint tins (t : Z) (x : B) (l : list (Z * B)) : list (Z * B) :=
    match l with
    | [] => [(t, x)]
    | (t', x') :: r => if t' <=? t then (t', x') :: tins t x r else (t, x) :: l
    end.

  Definition tsorted l := StronglySorted (fun a b : Z * B => fst a <= fst b) l.

  Lemma tins_perm t x l : Permutation (tins t x l) ((t, x) :: l).
  Proof.
    induction l as [|[t' x'] r IH]; cbn; auto. destruct (t' <=? t); auto.
    eapply perm_trans; [apply perm_skip, IH | apply perm_swap].
  Qed.

  Lemma tins_In t x l e : In e (tins t x l) <-> e = (t, x) \/ In e l.
  Proof.
    split; intros H.
    - apply (Permutation_in _ (tins_perm t x l)) in H as [<-|H]; auto.
    - apply (Permutation_in _ (Permutation_sym (tins_perm t x l))). destruct H as [->|H]; cbn; auto.
  Qed.

  Lemma tins_Forall (P : Z * B -> Prop) t x l : Forall P l -> P (t, x) -> Forall P (tins t x l).
  Proof. rewrite !Forall_forall. intros H Ht e E. apply tins_In in E as [->|E]; auto. Qed.

  Lemma tins_sorted t x l : tsorted l -> tsorted (tins t x l).
  Proof.
    induction l as [|[t' x'] r IH]; cbn; intros H.
    - repeat constructor.
    - apply StronglySorted_inv in H as [Hr Hall]. destruct (Z.leb_spec t' t).
      + constructor; [exact (IH Hr)|]. apply tins_Forall; auto.
      + repeat constructor; auto; cbn; [lia|]. eapply Forall_impl; [|exact Hall]. cbn. intros; lia.
  Qed.

  Lemma tins_head t x l : (forall e, In e l -> t < fst e) -> tins t x l = (t, x) :: l.
  Proof.
    destruct l as [|[t' x'] r]; cbn; auto. intros H. specialize (H _ (or_introl eq_refl)). cbn in H.
    destruct (Z.leb_spec t' t); [lia | reflexivity].
  Qed.

  Lemma filter_tins (Q : Z -> bool) t x l : tsorted l ->
    filter (fun e => Q (fst e)) (tins t x l) =
    if Q t then tins t x (filter (fun e => Q (fst e)) l) else filter (fun e => Q (fst e)) l.
  Proof.
    set (f := fun e : Z * B => Q (fst e)).
    induction l as [|[t' x'] r IH]; intros H; [unfold f; cbn; destruct (Q t); reflexivity|].
    apply StronglySorted_inv in H as [Hr Hall]. cbn [tins]. destruct (Z.leb_spec t' t) as [L|L].
    - cbn [filter]. rewrite (IH Hr). change (f (t', x')) with (Q t').
      destruct (Q t), (Q t'); cbn [tins]; rewrite ?(proj2 (Z.leb_le _ _) L); reflexivity.
    - change (filter f ((t, x) :: (t', x') :: r))
        with (if Q t then (t, x) :: filter f ((t', x') :: r) else filter f ((t', x') :: r)).
      destruct (Q t); [|reflexivity]. symmetry. apply tins_head.
      intros e E. apply filter_In in E as [[<-|E] _]; [exact L|].
      rewrite Forall_forall in Hall. specialize (Hall e E). cbn in Hall. lia.
  Qed.
End TimedInsert.
