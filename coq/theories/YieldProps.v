(** Kernel lemmas for C20 (postponing / suspending lets every other runnable activity run first) and the
    kernel part of the C03 livelock bound ([step_budget]).  ARBITRARY clients, as in KernelProps.v. *)
From Coq Require Import ZArith List Bool Lia.
From Usim Require Import XTime Kernel KernelProps ListFacts.
Import ListNotations.

Definition is_know (o : kop) : bool := match o with KNow _ _ => true | _ => false end.
Definition n_know (ops : list kop) : nat := length (filter is_know ops).

Lemma kapply_all_pending ops : forall l,
  length (pending (kapply_all l ops)) = length (pending l) + n_know ops.
Proof.
  unfold kapply_all, n_know. induction ops as [|o ops IH]; cbn [fold_left filter]; intros l; [cbn; lia|].
  rewrite IH. destruct o as [a s|d a s|t a s|s|s]; cbn [kapply is_know length].
  - cbn. rewrite app_length. cbn. lia.
  - destruct (xpos d && xltb (now l) (xadd (now l) d)); cbn; lia.
  - destruct (xltb (now l) t); cbn; lia.
  - cbn. lia.
  - cbn. lia.
Qed.

Definition rv_sub (l1 l2 : loop) : Prop := forall s, mem_sid s (revoked l1) = true -> mem_sid s (revoked l2) = true.

Lemma rv_sub_revoked l1 l2 b : rv_sub l1 l2 -> is_revoked (revoked l1) b = true -> is_revoked (revoked l2) b = true.
Proof. unfold is_revoked. destruct (a_sig b); auto. Qed.

Lemma kapply_mono l o : rv_sub l (kapply l o) /\ forall b, In b (queued l) -> In b (queued (kapply l o)).
Proof.
  split; [exact (proj1 (proj2 (kapply_knew l o))) | intros b Hb; apply queued_kapply; left; exact Hb].
Qed.

Lemma kapply_all_mono ops l :
  rv_sub l (kapply_all l ops) /\ forall b, In b (queued l) -> In b (queued (kapply_all l ops)).
Proof.
  apply (fold_left_inv kapply (fun l' => rv_sub l l' /\ forall b, In b (queued l) -> In b (queued l'))).
  - intros l' o [H1 H2]. destruct (kapply_mono l' o) as [H3 H4]. split; [intros s H; auto | auto].
  - split; [intros s H; exact H | auto].
Qed.

Lemma kapply_all_revokes ops s : forall l, In (KRevoke s) ops -> mem_sid s (revoked (kapply_all l ops)) = true.
Proof.
  induction ops as [|o ops IH]; intros l H; [contradiction|]. destruct H as [->|H]; [|apply IH, H].
  apply (kapply_all_mono ops (kapply l (KRevoke s))). cbn. rewrite Nat.eqb_refl. reflexivity.
Qed.

Section Client.
  Variable S : Type.
  Variable client : S -> loop -> activation -> S * list kop.

  (** [kexec], instrumented: every executed activation with the loop state in which it executes and the
      requests its activity makes before it hibernates *)
  Record xevent := { x_ev : exec_event; x_loop : loop; x_ops : list kop }.

  Fixpoint kexec_x (n : nat) (st : S) (l : loop) : list xevent :=
    match n with
    | O => []
    | Datatypes.S n' =>
        match next l with
        | None => []
        | Some (a, l') =>
            let '(st', ops) := client st l' a in
            {| x_ev := {| e_time := now l'; e_act := a |}; x_loop := l'; x_ops := ops |}
              :: kexec_x n' st' (kapply_all l' ops)
        end
    end.

  Lemma kexec_x_erase n : forall st l, map x_ev (kexec_x n st l) = kexec S client n st l.
  Proof.
    induction n as [|n IH]; cbn; intros st l; auto. destruct (next l) as [[a l']|]; auto.
    destruct (client st l' a) as [st' ops]. cbn. f_equal. apply IH.
  Qed.

  Lemma kexec_x_step n st l :
    inv l ->
    kexec_x (Datatypes.S n) st l = [] \/
    exists a l' st' ops,
      next l = Some (a, l') /\ inv (kapply_all l' ops) /\
      kexec_x (Datatypes.S n) st l
      = {| x_ev := {| e_time := now l'; e_act := a |}; x_loop := l'; x_ops := ops |}
          :: kexec_x n st' (kapply_all l' ops).
  Proof.
    intros Hinv. cbn. destruct (next l) as [[a l']|] eqn:E; [right | left; reflexivity].
    destruct (client st l' a) as [st' ops]. exists a, l', st', ops. splits; auto.
    apply kapply_all_inv, (next_step _ _ _ Hinv E).
  Qed.

  Lemma kexec_x_time n st l x :
    inv l -> In x (kexec_x n st l) -> e_time (x_ev x) = a_due (e_act (x_ev x)) /\ xle (now l) (e_time (x_ev x)).
  Proof.
    intros Hinv Hin. pose proof (exec_at_due S client n st l Hinv) as H. rewrite Forall_forall in H.
    apply H. rewrite <- kexec_x_erase. apply in_map. exact Hin.
  Qed.

  Definition in_step (t : xtime) (x : xevent) : bool := xeqb (e_time (x_ev x)) t.
  Definition step_execs (t : xtime) (tr : list xevent) : nat := length (filter (in_step t) tr).
  Definition step_knows (t : xtime) (tr : list xevent) : nat :=
    list_sum (map (fun x => n_know (x_ops x)) (filter (in_step t) tr)).

  Lemma no_step_after n st l t : inv l -> xlt t (now l) -> filter (in_step t) (kexec_x n st l) = [].
  Proof.
    intros Hinv Hlt. apply filter_none. intros x Hx. destruct (xeqb (e_time (x_ev x)) t) eqn:Hx2; [|exact Hx2].
    apply xeqb_eq in Hx2. destruct (kexec_x_time _ _ _ _ Hinv Hx) as [_ H]. rewrite Hx2 in H.
    destruct (xlt_irrefl _ (xlt_le_trans _ _ _ Hlt H)).
  Qed.

  (** C03, livelock bound.  From any state of a time step on: the number of activations still executed at this
      time is at most the number queued for it now plus the number of [schedule(target, signal)] (no delay)
      calls made during the rest of the step.  So a time step with finitely many such calls is finite; each
      executed activation consumes one queued item. *)
  Theorem step_budget n : forall st l,
    inv l ->
    step_execs (now l) (kexec_x n st l) <= length (pending l) + step_knows (now l) (kexec_x n st l).
  Proof.
    unfold step_execs, step_knows.
    induction n as [|n IH]; intros st l Hinv; [cbn; lia|].
    destruct (kexec_x_step n st l Hinv) as [->|(a & l' & st' & ops & E & J & ->)]; [cbn; lia|].
    pose proof (kapply_all_now ops l') as J2.
    cbn [filter]. change (in_step (now l) _) with (xeqb (now l') (now l)).
    destruct (next_step _ _ _ Hinv E) as (_ & _ & _ & _ & [[K1 K2]|K]).
    - rewrite K1, (proj2 (xeqb_eq _ _) eq_refl). specialize (IH st' _ J). rewrite J2, K1 in IH.
      unfold list_sum in *. cbn [length map fold_right x_ops]. rewrite kapply_all_pending in IH. lia.
    - destruct (xeqb (now l') (now l)) eqn:Hx; [apply xeqb_eq in Hx; rewrite Hx in K; destruct (xlt_irrefl _ K)|].
      rewrite no_step_after; [cbn; lia | exact J | rewrite J2; exact K].
  Qed.

  Lemma kexec_x_rv_mono n : forall st l x, inv l -> In x (kexec_x n st l) -> rv_sub l (x_loop x).
  Proof.
    induction n as [|n IH]; intros st l x Hinv Hx; [destruct Hx|].
    destruct (kexec_x_step n st l Hinv) as [E|(a & l' & st' & ops & N & J & E)]; rewrite E in Hx; [destruct Hx|].
    destruct (next_step _ _ _ Hinv N) as (_ & _ & Hr & _). unfold rv_sub. rewrite <- Hr.
    destruct Hx as [<-|Hx]; [auto|]. intros s Hs. apply (IH _ _ _ J Hx), kapply_all_mono, Hs.
  Qed.

  (** C03: a revoked wake-up is never executed (the loop skips revoked activations when it pops them) ... *)
  Theorem revoked_never_executed n : forall st l,
    inv l -> Forall (fun x => is_revoked (revoked (x_loop x)) (e_act (x_ev x)) = false) (kexec_x n st l).
  Proof.
    induction n as [|n IH]; intros st l Hinv; [constructor|].
    destruct (kexec_x_step n st l Hinv) as [->|(a & l' & st' & ops & E & J & ->)]; constructor; [|apply IH, J].
    cbn. destruct (next_step _ _ _ Hinv E) as (_ & _ & -> & _). destruct (next_split _ _ _ E) as (_ & _ & _ & H).
    exact H.
  Qed.

  (** ... and revoking is final: once some activation has issued [KRevoke s] (a waiter leaving its wait: the
      `finally: wake_up.revoke()` of postpone/suspend, `__unsubscribe__` of a scheduled subscription, the end of a
      task revoking its pending cancellations), NO later activation of the run carries the signal [s], whatever
      any client does afterwards - even if [s] had been scheduled before, or is scheduled again later. *)
  Theorem revoke_is_final n : forall st l i j xi xj s,
    inv l -> i < j ->
    nth_error (kexec_x n st l) i = Some xi -> nth_error (kexec_x n st l) j = Some xj ->
    In (KRevoke s) (x_ops xi) -> a_sig (e_act (x_ev xj)) <> Some s.
  Proof.
    induction n as [|n IH]; intros st l i j xi xj s Hinv Hij Hi Hj Hrv; [destruct i; discriminate|].
    destruct (kexec_x_step n st l Hinv) as [E|(a & l' & st' & ops & _ & J & E)]; rewrite E in Hi, Hj;
      [destruct i; discriminate|].
    destruct j as [|j]; [lia|]. destruct i as [|i]; cbn in Hi, Hj.
    - injection Hi as <-. cbn in Hrv. apply nth_error_In in Hj.
      (* [s] is revoked once the requests of [xi] are applied, stays revoked, and [xj] was not revoked when it ran *)
      pose proof (kexec_x_rv_mono _ _ _ _ J Hj s (kapply_all_revokes ops s l' Hrv)) as Hm.
      pose proof (proj1 (Forall_forall _ _) (revoked_never_executed n st' _ J) xj Hj) as Hx.
      intros Heq. unfold is_revoked in Hx. rewrite Heq, Hm in Hx. discriminate.
    - apply (IH st' (kapply_all l' ops) i j xi xj s J); auto. lia.
  Qed.

  (** ** C20: whoever re-queues itself lets everything queued earlier run first

      If [b] is queued and must run before [p] (earlier due time, or same due time and scheduled earlier),
      then at the moment [p] executes, [b] has already executed -- unless [b] is revoked by then. *)
  Theorem earlier_runs_first b p n : forall st l i x,
    inv l -> In b (queued l) -> klt b p ->
    nth_error (kexec_x n st l) i = Some x -> e_act (x_ev x) = p ->
    is_revoked (revoked (x_loop x)) b = false ->
    exists j y, j < i /\ nth_error (kexec_x n st l) j = Some y /\ e_act (x_ev y) = b.
  Proof.
    induction n as [|n IH]; intros st l i x Hinv Hb Hlt Hn Hp Hr; [destruct i; discriminate|].
    pose proof (kexec_x_rv_mono _ _ _ _ Hinv (nth_error_In _ _ Hn)) as Hm.
    destruct (kexec_x_step n st l Hinv) as [E|(a & l' & st' & ops & N & J & E)]; rewrite E in Hn |- *;
      [destruct i; discriminate|]. clear E.
    destruct (next_queue _ _ _ Hinv N) as (pre & Hq & Hpre & _ & Hlater). rewrite Forall_forall in Hpre, Hlater.
    rewrite Hq in Hb. apply in_app_iff in Hb as [Hb|[<-|Hb]].
    - (* revoked before the step: still revoked when [p] runs *)
      rewrite (rv_sub_revoked _ _ _ Hm (Hpre _ Hb)) in Hr. discriminate.
    - (* [b] is what executes now; [p] is not, being later *)
      destruct i as [|i]; cbn in Hn.
      + injection Hn as <-. cbn in Hp. subst p. destruct (klt_irrefl _ Hlt).
      + exists 0. eexists. split; [lia|]. split; reflexivity.
    - (* [b] stays queued: [p] is later than [b], which is later than [a] *)
      destruct i as [|i]; cbn in Hn.
      + injection Hn as <-. cbn in Hp. subst p. destruct (klt_irrefl _ (klt_trans _ _ _ Hlt (Hlater _ Hb))).
      + destruct (IH _ _ _ _ J (proj2 (kapply_all_mono ops l') _ Hb) Hlt Hn Hp Hr) as (j & y & Hj & Hy & Hy').
        exists (Datatypes.S j), y. split; [lia|]. split; auto.
  Qed.

  Lemma pending_runs_first l o ops p n st i x b :
    inv l -> In b (pending l) -> klt b p ->
    nth_error (kexec_x n st (kapply_all (kapply l o) ops)) i = Some x -> e_act (x_ev x) = p ->
    is_revoked (revoked (x_loop x)) b = false ->
    exists j y, j < i /\ nth_error (kexec_x n st (kapply_all (kapply l o) ops)) j = Some y /\ e_act (x_ev y) = b.
  Proof.
    intros Hinv Hb. apply earlier_runs_first; [exact (kapply_all_inv (o :: ops) l Hinv)|].
    apply (kapply_all_mono (o :: ops) l). apply in_app_iff. left. exact Hb.
  Qed.

  (** [postpone]: the activity asks for its own wake-up in the current time step ([KNow a s], the activation
      gets the fresh sequence number [nseq l]); [ops] are its remaining requests before it hibernates.
      In EVERY continuation, when that wake-up executes, every activation [b] that was already queued for
      the current time has executed before it (or is revoked, i.e. withdrawn by its own waiter). *)
  Theorem postpone_lets_others_run l a s ops n st i x b :
    inv l -> In b (pending l) ->
    nth_error (kexec_x n st (kapply_all (kapply l (KNow a s)) ops)) i = Some x ->
    e_act (x_ev x) = {| a_tgt := a; a_sig := s; a_seq := nseq l; a_due := now l |} ->
    is_revoked (revoked (x_loop x)) b = false ->
    exists j y, j < i /\ nth_error (kexec_x n st (kapply_all (kapply l (KNow a s)) ops)) j = Some y /\
                e_act (x_ev y) = b.
  Proof.
    intros Hinv Hb. apply pending_runs_first; auto. right. exact (bucket_ok_in _ _ _ _ (proj1 Hinv) Hb).
  Qed.

  (** [suspend(delay=d)] / a Delay subscription: the wake-up executes at exactly now + d, a strictly later time *)
  Theorem suspend_advances l d a s ops n st x :
    inv l -> xpos d && xltb (now l) (xadd (now l) d) = true ->
    In x (kexec_x n st (kapply_all (kapply l (KAfter d a s)) ops)) ->
    e_act (x_ev x) = {| a_tgt := a; a_sig := s; a_seq := nseq l; a_due := xadd (now l) d |} ->
    e_time (x_ev x) = xadd (now l) d /\ xlt (now l) (e_time (x_ev x)).
  Proof.
    intros Hinv Hd Hx Hp. apply andb_true_iff in Hd.
    destruct (kexec_x_time _ _ _ _ (kapply_all_inv (_ :: ops) l Hinv) Hx) as [H _].
    rewrite Hp in H. rewrite H. split; [reflexivity | apply Hd].
  Qed.

  (** [suspend(until=t)] *)
  Theorem suspend_until_advances l t a s ops n st x :
    inv l -> xltb (now l) t = true ->
    In x (kexec_x n st (kapply_all (kapply l (KAt t a s)) ops)) ->
    e_act (x_ev x) = {| a_tgt := a; a_sig := s; a_seq := nseq l; a_due := t |} ->
    e_time (x_ev x) = t /\ xlt (now l) (e_time (x_ev x)).
  Proof.
    intros Hinv Hd Hx Hp.
    destruct (kexec_x_time _ _ _ _ (kapply_all_inv (_ :: ops) l Hinv) Hx) as [H _].
    rewrite Hp in H. rewrite H. split; [reflexivity | exact Hd].
  Qed.

  (** ... hence everything that was queued for the current time ran before the suspended activity resumes *)
  Theorem suspend_lets_others_run l o p ops n st i x b :
    inv l -> In b (pending l) -> xlt (now l) (a_due p) ->
    nth_error (kexec_x n st (kapply_all (kapply l o) ops)) i = Some x -> e_act (x_ev x) = p ->
    is_revoked (revoked (x_loop x)) b = false ->
    exists j y, j < i /\ nth_error (kexec_x n st (kapply_all (kapply l o) ops)) j = Some y /\ e_act (x_ev y) = b.
  Proof.
    intros Hinv Hb Hlt. apply pending_runs_first; auto. left.
    rewrite (proj1 (bucket_ok_in _ _ _ _ (proj1 Hinv) Hb)). exact Hlt.
  Qed.
End Client.

(** ** non-vacuity: three roots; root 0 postpones when it is started, root 1 suspends for 2 *)
Definition demo_client (st : unit) (l : loop) (a : activation) : unit * list kop :=
  match a_tgt a, a_sig a with
  | 0, None => (tt, [KNow 0 (Some 7)])
  | 1, None => (tt, [KAfter (Fin 2) 1 (Some 8)])
  | _, _ => (tt, [])
  end.

Example demo_order :
  map (fun x => (e_time (x_ev x), a_tgt (e_act (x_ev x)), a_sig (e_act (x_ev x))))
      (kexec_x unit demo_client 10 tt (loop_init 3 (Fin 0)))
  = [(Fin 0, 0, None); (Fin 0, 1, None); (Fin 0, 2, None); (Fin 0, 0, Some 7); (Fin 2, 1, Some 8)].
Proof. vm_compute. reflexivity. Qed.

Example demo_budget :
  step_execs (Fin 0) (kexec_x unit demo_client 10 tt (loop_init 3 (Fin 0))) = 4 /\
  length (pending (loop_init 3 (Fin 0))) = 3 /\
  step_knows (Fin 0) (kexec_x unit demo_client 10 tt (loop_init 3 (Fin 0))) = 1.
Proof. vm_compute. auto. Qed.
