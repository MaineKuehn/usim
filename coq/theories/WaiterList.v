(** The waiter list of a [Notification]: subscribe / unsubscribe / awake_next / awake_all.
    A subscription is a pair (waiter, token); the token is the private [Interrupt] object of that subscription.
    [step] mirrors usim/_primitives/notification.py line by line:
      __subscribe__      append to the list
      __unsubscribe__    if the token was scheduled: revoke it, else remove exactly that pair from the list
      __awake_next__     pop the OLDEST pair and schedule it (NoSubscribers if the list is empty)
      __awake_all__      schedule every pair, oldest first, and clear the list
    Output of a history: the scheduled pairs in order (what the loop will run, in that order), the revoked tokens, the
    rest of the list.  The theorems hold for every history of operations. *)
From Coq Require Import List Bool PeanoNat.
From Usim Require Import ListFacts.
Import ListNotations.

Definition sub := (nat * nat)%type.     (* (waiter, token) *)

Inductive op := Sub (w t : nat) | Unsub (w t : nat) | AwakeNext | AwakeAll.

Record wl := { waiting : list sub; scheduled : list sub; revoked : list nat; errors : nat }.

Definition sub_eqb (a b : sub) : bool := Nat.eqb (fst a) (fst b) && Nat.eqb (snd a) (snd b).

Fixpoint remove_first (x : sub) (l : list sub) : option (list sub) :=
  match l with
  | [] => None
  | y :: r => if sub_eqb x y then Some r else option_map (cons y) (remove_first x r)
  end.

Definition is_scheduled (s : wl) (t : nat) : bool := existsb (fun p => Nat.eqb (snd p) t) (scheduled s).

Definition step (s : wl) (o : op) : wl :=
  match o with
  | Sub w t => {| waiting := waiting s ++ [(w, t)]; scheduled := scheduled s; revoked := revoked s; errors := errors s |}
  | Unsub w t =>
      if is_scheduled s t
      then {| waiting := waiting s; scheduled := scheduled s; revoked := revoked s ++ [t]; errors := errors s |}
      else match remove_first (w, t) (waiting s) with
           | Some l => {| waiting := l; scheduled := scheduled s; revoked := revoked s; errors := errors s |}
           | None => {| waiting := waiting s; scheduled := scheduled s; revoked := revoked s; errors := S (errors s) |}   (* ValueError *)
           end
  | AwakeNext =>
      match waiting s with
      | [] => {| waiting := []; scheduled := scheduled s; revoked := revoked s; errors := errors s |}                  (* NoSubscribers *)
      | p :: r => {| waiting := r; scheduled := scheduled s ++ [p]; revoked := revoked s; errors := errors s |}
      end
  | AwakeAll => {| waiting := []; scheduled := scheduled s ++ waiting s; revoked := revoked s; errors := errors s |}
  end.

Definition init : wl := {| waiting := []; scheduled := []; revoked := []; errors := 0 |}.
Definition run (ops : list op) : wl := fold_left step ops init.

(** the central invariant: [scheduled s ++ waiting s] is a subsequence of the list of all subscriptions made so far *)
Fixpoint subseq (a b : list sub) : Prop :=
  match a, b with
  | [], _ => True
  | _ :: _, [] => False
  | x :: a', y :: b' => (x = y /\ subseq a' b') \/ subseq a b'
  end.

Lemma run_snoc ops o : run (ops ++ [o]) = step (run ops) o.
Proof. unfold run. rewrite fold_left_app. reflexivity. Qed.

Lemma subseq_nil_l b : subseq [] b.
Proof. destruct b; exact I. Qed.

Lemma subseq_refl l : subseq l l.
Proof. induction l as [|x l IH]; cbn; auto. Qed.

Lemma subseq_nil_r a : subseq a [] -> a = [].
Proof. destruct a; cbn; [reflexivity|contradiction]. Qed.

Lemma subseq_cons_r a x b : subseq a b -> subseq a (x :: b).
Proof. destruct a as [|y a]; cbn; auto. Qed.

Lemma subseq_app a b c d : subseq a b -> subseq c d -> subseq (a ++ c) (b ++ d).
Proof.
  intros Hab Hcd. revert a Hab. induction b as [|y b IH]; intros a Hab.
  - apply subseq_nil_r in Hab. subst a. exact Hcd.
  - destruct a as [|z a].
    + apply subseq_cons_r, (IH []), subseq_nil_l.
    + cbn in Hab |- *. destruct Hab as [[-> Hab]|Hab].
      * left. split; [reflexivity|apply IH; exact Hab].
      * right. apply (IH (z :: a)). exact Hab.
Qed.

Lemma subseq_app_mid a p r : subseq (a ++ r) (a ++ p :: r).
Proof. apply subseq_app; [|apply subseq_cons_r]; apply subseq_refl. Qed.

Lemma subseq_trans a b c : subseq a b -> subseq b c -> subseq a c.
Proof.
  revert a b. induction c as [|z c IH]; intros a b Hab Hbc.
  - apply subseq_nil_r in Hbc. subst b. exact Hab.
  - destruct b as [|y b]; [apply subseq_nil_r in Hab; subst a; exact I|].
    destruct a as [|x a]; [exact I|].
    cbn in Hab, Hbc |- *. destruct Hbc as [[-> Hbc]|Hbc].
    + destruct Hab as [[-> Hab]|Hab].
      * left. split; [reflexivity|exact (IH _ _ Hab Hbc)].
      * right. exact (IH _ _ Hab Hbc).
    + right. exact (IH (x :: a) (y :: b) Hab Hbc).
Qed.

Lemma subseq_In a : forall b x, subseq a b -> In x a -> In x b.
Proof.
  induction a as [|y a IH]; intros b x H Hin; [destruct Hin|].
  induction b as [|z b IHb]; cbn in H; [contradiction|].
  destruct H as [[-> H]|H].
  - destruct Hin as [<-|Hin]; [left; reflexivity|right; exact (IH _ _ H Hin)].
  - right. apply IHb; exact H.
Qed.

Lemma subseq_NoDup a : forall b, subseq a b -> NoDup b -> NoDup a.
Proof.
  induction a as [|y a IH]; intros b H Hnd; [constructor|].
  induction b as [|z b IHb]; cbn in H; [contradiction|].
  apply NoDup_cons_iff in Hnd as [Hz Hb].
  destruct H as [[-> H]|H].
  - constructor; [|exact (IH _ H Hb)]. intros Hin. exact (Hz (subseq_In _ _ _ H Hin)).
  - apply IHb; assumption.
Qed.

Lemma sub_eqb_eq a b : sub_eqb a b = true -> a = b.
Proof.
  destruct a as [a1 a2], b as [b1 b2]. unfold sub_eqb. cbn. intros H.
  apply andb_prop in H as [H1 H2]. apply Nat.eqb_eq in H1, H2. subst. reflexivity.
Qed.

Lemma remove_first_split x l l' : remove_first x l = Some l' -> exists a b, l = a ++ x :: b /\ l' = a ++ b.
Proof.
  revert l'. induction l as [|y l IH]; intros l' H; cbn in H; [discriminate|].
  destruct (sub_eqb x y) eqn:E.
  - apply sub_eqb_eq in E. injection H as <-. subst y. exists [], l. split; reflexivity.
  - destruct (remove_first x l) as [r|]; [|discriminate]. injection H as <-.
    destruct (IH r eq_refl) as (a & b & -> & ->). exists (y :: a), b. split; reflexivity.
Qed.

Lemma remove_first_subseq x l l' : remove_first x l = Some l' -> subseq l' l.
Proof. intros H. apply remove_first_split in H as (a & b & -> & ->). apply subseq_app_mid. Qed.

Lemma remove_first_length x l l' : remove_first x l = Some l' -> length l = S (length l').
Proof.
  intros H. apply remove_first_split in H as (a & b & -> & ->). rewrite !app_length. cbn. symmetry. apply plus_n_Sm.
Qed.

Lemma remove_first_other x l l' p : remove_first x l = Some l' -> In p l -> p = x \/ In p l'.
Proof.
  intros H. apply remove_first_split in H as (a & b & -> & ->). rewrite !in_app_iff. cbn.
  intros [H|[H|H]]; auto.
Qed.

Definition all_subs (ops : list op) : list sub :=
  flat_map (fun o => match o with Sub w t => [(w, t)] | _ => [] end) ops.

Lemma all_subs_app a b : all_subs (a ++ b) = all_subs a ++ all_subs b.
Proof. unfold all_subs. apply flat_map_app. Qed.

Lemma step_subseq s o subs : subseq (scheduled s ++ waiting s) subs ->
  subseq (scheduled (step s o) ++ waiting (step s o))
         (subs ++ match o with Sub w t => [(w, t)] | _ => [] end).
Proof.
  intros H. destruct o as [w t|w t| |]; cbn; rewrite ?app_nil_r.
  - rewrite app_assoc. apply subseq_app; [exact H|apply subseq_refl].
  - destruct (is_scheduled s t); cbn; [exact H|].
    destruct (remove_first (w, t) (waiting s)) as [l|] eqn:E; cbn; [|exact H].
    refine (subseq_trans _ _ _ _ H). apply subseq_app; [apply subseq_refl|exact (remove_first_subseq _ _ _ E)].
  - destruct (waiting s) as [|p r]; cbn; [|rewrite <- app_assoc]; exact H.
  - exact H.
Qed.

(** waking is FIFO, and nothing is scheduled that was not subscribed *)
Theorem scheduled_in_subscription_order ops :
  subseq (scheduled (run ops) ++ waiting (run ops)) (all_subs ops).
Proof.
  induction ops as [|o ops IH] using rev_ind; [exact I|].
  rewrite run_snoc, all_subs_app. cbn [all_subs flat_map]. rewrite app_nil_r. apply step_subseq, IH.
Qed.

Theorem awake_all_wakes_everybody ops :
  waiting (run (ops ++ [AwakeAll])) = [] /\
  scheduled (run (ops ++ [AwakeAll])) = scheduled (run ops) ++ waiting (run ops).
Proof. rewrite run_snoc. split; reflexivity. Qed.

Theorem awake_next_wakes_the_oldest ops p r : waiting (run ops) = p :: r ->
  waiting (run (ops ++ [AwakeNext])) = r /\ scheduled (run (ops ++ [AwakeNext])) = scheduled (run ops) ++ [p].
Proof. rewrite run_snoc. cbn [step]. intros ->. split; reflexivity. Qed.

Theorem unsubscribe_removes_exactly_that_pair ops w t l :
  is_scheduled (run ops) t = false -> remove_first (w, t) (waiting (run ops)) = Some l ->
  waiting (run (ops ++ [Unsub w t])) = l /\ scheduled (run (ops ++ [Unsub w t])) = scheduled (run ops) /\
  subseq l (waiting (run ops)) /\ length (waiting (run ops)) = S (length l).
Proof.
  rewrite run_snoc. cbn [step]. intros Hs Hr. rewrite Hs, Hr.
  split; [reflexivity|]. split; [reflexivity|]. split; [exact (remove_first_subseq _ _ _ Hr)|exact (remove_first_length _ _ _ Hr)].
Qed.

Example ex_history :
  let s := run [Sub 1 10; Sub 2 20; Sub 3 30; Unsub 2 20; AwakeNext; Sub 4 40; AwakeAll; Unsub 3 30] in
  scheduled s = [(1, 10); (3, 30); (4, 40)] /\ waiting s = [] /\ revoked s = [30] /\ errors s = 0.
Proof. vm_compute. repeat split. Qed.

(** the premise holds in usim: the token of a subscription is a fresh [Interrupt] object *)
Theorem nobody_woken_twice ops :
  NoDup (all_subs ops) -> NoDup (scheduled (run ops) ++ waiting (run ops)).
Proof. apply subseq_NoDup, scheduled_in_subscription_order. Qed.

Definition unsubs_of (ops : list op) : list sub :=
  flat_map (fun o => match o with Unsub w t => [(w, t)] | _ => [] end) ops.
Definition accounted (s : wl) (p : sub) : Prop := In p (waiting s) \/ In p (scheduled s).

(** The argument does not depend on what the lists are; FlagList uses it as well. *)
Section NobodyLost.
  Context {St Op Who : Type} (step : St -> Op -> St) (acc : St -> Who -> Prop) (subs unsubs : Op -> list Who).
  Hypothesis keep : forall s o p, acc s p -> acc (step s o) p \/ In p (unsubs o).
  Hypothesis new : forall s o p, In p (subs o) -> acc (step s o) p.

  Theorem fold_nobody_lost ops s p :
    In p (flat_map subs ops) -> acc (fold_left step ops s) p \/ In p (flat_map unsubs ops).
  Proof.
    induction ops as [|o ops IH] using rev_ind; [contradiction|].
    rewrite fold_left_app, !flat_map_app, !in_app_iff. cbn. rewrite !app_nil_r. intros [H|H].
    - destruct (IH H) as [A|U]; [|auto]. destruct (keep _ o _ A); auto.
    - left. apply new, H.
  Qed.
End NobodyLost.

Lemma step_keeps s o p :
  accounted s p -> accounted (step s o) p \/ In p (match o with Unsub w t => [(w, t)] | _ => [] end).
Proof.
  unfold accounted. intros H. destruct o as [w t|w t| |]; cbn.
  - left. rewrite in_app_iff. destruct H; auto.
  - destruct (is_scheduled s t); [auto|].
    destruct (remove_first (w, t) (waiting s)) as [l|] eqn:E; cbn; [|auto].
    destruct H as [H|H]; [|auto]. destruct (remove_first_other _ _ _ _ E H); auto.
  - left. destruct (waiting s) as [|q r]; cbn; [auto|]. rewrite in_app_iff. cbn. destruct H as [[<-|H]|H]; auto.
  - left. rewrite in_app_iff. destruct H; auto.
Qed.

Lemma step_new s o p : In p (match o with Sub w t => [(w, t)] | _ => [] end) -> accounted (step s o) p.
Proof. destruct o; try contradiction. intros [<-|[]]. left. cbn. apply in_or_app. right. left. reflexivity. Qed.

Theorem nobody_is_lost ops p : In p (all_subs ops) -> accounted (run ops) p \/ In p (unsubs_of ops).
Proof. exact (fold_nobody_lost step accounted _ _ step_keeps step_new ops init p). Qed.
