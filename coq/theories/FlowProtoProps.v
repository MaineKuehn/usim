(** Theorems about the discrete-event model of first()/collect() (FlowProto.v), for all inputs: any number of
    activities, any non-negative delays, any count, any think times.
    Every step keeps [Inv] ([InvA]: agenda, tasks and trace against the finish order; [InvF]: the failures and the
    cancel signal; [InvC]: the caller) until the turn that ends the call ([step_cases]).  [exec_shape] hands out the
    state before that turn; the [exec_*] theorems read the properties of a [cfg] off it, and the theorems about
    [first_run] and [collect_run] are those at [first_cfg] and [collect_cfg]. *)
From Coq Require Import ZArith List Lia Sorting.Sorted Sorting.Permutation.
From Usim Require Import ListFacts TimedInsert FlowProto.
Import ListNotations.
Open Scope Z_scope.

Fixpoint ins (t : Z) (i : nat) (l : list (Z * nat)) : list (Z * nat) :=
  match l with
  | [] => [(t, i)]
  | (t', i') :: r => if t' <=? t then (t', i') :: ins t i r else (t, i) :: l
  end.

Fixpoint order_from (i : nat) (t0 : Z) (acts : list activity) (l : list (Z * nat)) : list (Z * nat) :=
  match acts with
  | [] => l
  | (d, _) :: r => order_from (S i) t0 r (ins (t0 + d) i l)
  end.

(** [(finish time, index)] of all activities, stably sorted by finish time (insertion sort in argument order) *)
Definition finish_order (t0 : Z) (acts : list activity) : list (Z * nat) := order_from 0 t0 acts [].

Definition delay_of (acts : list activity) (i : nat) : Z := fst (nth i acts (0, Val 0)).
Definition out_of (acts : list activity) (i : nat) : outcome := snd (nth i acts (0, Val 0)).
Definition ftime (t0 : Z) (acts : list activity) (i : nat) : Z := t0 + delay_of acts i.

Definition lexlt (p q : Z * nat) : Prop := fst p < fst q \/ (fst p = fst q /\ (snd p < snd q)%nat).

Definition tsorted (l : list (Z * nat)) := StronglySorted (fun a b => fst a <= fst b) l.

(** [ins] and [FlowProto.push] are [TimedInsert.tins], by conversion *)
Lemma ins_tins t i l : ins t i l = tins t i l.
Proof. reflexivity. Qed.

Lemma push_tins t a g : push t a g = tins t a g.
Proof. reflexivity. Qed.

Lemma ins_In t i l x : In x (ins t i l) <-> x = (t, i) \/ In x l.
Proof. rewrite ins_tins. apply tins_In. Qed.

Lemma ins_tsorted t i l : tsorted l -> tsorted (ins t i l).
Proof. rewrite ins_tins. apply tins_sorted. Qed.

Lemma ins_lexsorted t i l :
  StronglySorted lexlt l -> (forall p, In p l -> (snd p < i)%nat) -> StronglySorted lexlt (ins t i l).
Proof.
  induction l as [|[t' i'] r IH]; simpl; intros H Hi.
  - repeat constructor.
  - apply StronglySorted_inv in H as [Hr Hall]. pose proof (Hi _ (or_introl eq_refl)) as Hi'. simpl in Hi'.
    destruct (Z.leb_spec t' t); cbv iota.
    + constructor; [apply IH; auto|]. rewrite ins_tins. apply tins_Forall; [exact Hall|]. unfold lexlt; simpl. lia.
    + constructor; [constructor; assumption|]. constructor; [left; simpl; lia|].
      eapply Forall_impl; [|exact Hall]. unfold lexlt; simpl. intros; lia.
Qed.

Lemma order_from_perm acts : forall i t0 l,
  Permutation (order_from i t0 acts l)
              (l ++ map (fun j => (t0 + delay_of acts (j - i), j)) (seq i (length acts))).
Proof.
  induction acts as [|[d o] r IH]; intros i t0 l; simpl.
  - rewrite app_nil_r. auto.
  - eapply perm_trans; [apply IH|].
    replace (i - i)%nat with 0%nat by lia. unfold delay_of at 2. simpl.
    rewrite ins_tins. eapply perm_trans; [apply Permutation_app_tail, tins_perm|]. simpl.
    eapply perm_trans; [|apply Permutation_middle]. apply perm_skip. apply Permutation_app_head.
    apply Permutation_refl'. apply map_ext_in. intros j Hj. apply in_seq in Hj.
    unfold delay_of. replace (j - i)%nat with (S (j - S i)) by lia. reflexivity.
Qed.

Lemma finish_order_perm t0 acts :
  Permutation (finish_order t0 acts) (map (fun j => (ftime t0 acts j, j)) (seq 0 (length acts))).
Proof.
  unfold finish_order. eapply perm_trans; [apply order_from_perm|]. simpl.
  apply Permutation_refl'. apply map_ext. intros j. unfold ftime. rewrite Nat.sub_0_r. reflexivity.
Qed.

Lemma order_from_lexsorted acts : forall i t0 l,
  StronglySorted lexlt l -> (forall p, In p l -> (snd p < i)%nat) -> StronglySorted lexlt (order_from i t0 acts l).
Proof.
  induction acts as [|[d o] r IH]; intros i t0 l H Hi; simpl; auto.
  apply IH; [apply ins_lexsorted; auto|]. intros p Hp. apply ins_In in Hp. destruct Hp as [->|Hp]; simpl; auto.
  specialize (Hi p Hp). lia.
Qed.

Lemma finish_order_sorted t0 acts : StronglySorted lexlt (finish_order t0 acts).
Proof. apply order_from_lexsorted; [constructor | intros p []]. Qed.

(** the finish order is THE list of [(finish time, index)] that is strictly increasing in (time, then index): there is
    only one such list *)
Lemma finish_order_spec t0 acts :
  StronglySorted lexlt (finish_order t0 acts) /\
  Permutation (finish_order t0 acts) (map (fun j => (ftime t0 acts j, j)) (seq 0 (length acts))).
Proof. split; [apply finish_order_sorted | apply finish_order_perm]. Qed.

Lemma finish_order_tsorted t0 acts : tsorted (finish_order t0 acts).
Proof.
  apply (StronglySorted_impl lexlt); [|apply finish_order_sorted]. unfold lexlt. intros x y _ _ H. lia.
Qed.

Lemma finish_order_In t0 acts p :
  In p (finish_order t0 acts) <-> ((snd p < length acts)%nat /\ fst p = ftime t0 acts (snd p)).
Proof.
  split.
  - intros H. eapply Permutation_in in H; [|apply finish_order_perm]. apply in_map_iff in H.
    destruct H as (j & <- & Hj). apply in_seq in Hj. simpl. split; [lia | reflexivity].
  - intros [H1 H2]. eapply Permutation_in; [apply Permutation_sym, finish_order_perm|].
    apply in_map_iff. exists (snd p). split; [destruct p; simpl in *; congruence | apply in_seq; lia].
Qed.

Lemma finish_order_idx_perm t0 acts : Permutation (map snd (finish_order t0 acts)) (seq 0 (length acts)).
Proof.
  eapply perm_trans; [apply Permutation_map, finish_order_perm|]. rewrite map_map. simpl. rewrite map_id. auto.
Qed.

Lemma finish_order_nodup t0 acts : NoDup (map snd (finish_order t0 acts)).
Proof. eapply Permutation_NoDup; [apply Permutation_sym, finish_order_idx_perm | apply seq_NoDup]. Qed.

Lemma finish_order_length t0 acts : length (finish_order t0 acts) = length acts.
Proof.
  rewrite <- (map_length snd). rewrite (Permutation_length (finish_order_idx_perm t0 acts)). apply seq_length.
Qed.

Definition is_actb (a : agent) : bool := match a with AAct _ => true | _ => false end.
Definition is_consb (a : agent) : bool := match a with ACons => true | _ => false end.
Definition gsorted (g : agenda) := StronglySorted (fun a b : Z * agent => fst a <= fst b) g.

(** the wake-ups of activities that are still in the agenda, in agenda order *)
Fixpoint pend (g : agenda) : list (Z * nat) :=
  match g with
  | [] => []
  | (t, AAct i) :: r => (t, i) :: pend r
  | _ :: r => pend r
  end.

Fixpoint ncons (g : agenda) : nat :=
  match g with
  | [] => 0
  | (_, a) :: r => (if is_consb a then 1 else 0) + ncons r
  end.

(** no wake-up of an activity is queued behind an activation of the caller that is due at the same time or later *)
Fixpoint ofirst (g : agenda) : Prop :=
  match g with
  | [] => True
  | (t, a) :: r => (is_actb a = false -> Forall (fun x => is_actb (snd x) = true -> t < fst x) r) /\ ofirst r
  end.

Lemma push_In t a g x : In x (push t a g) <-> x = (t, a) \/ In x g.
Proof. rewrite push_tins. apply tins_In. Qed.

Lemma push_gsorted t a g : gsorted g -> gsorted (push t a g).
Proof. rewrite push_tins. apply tins_sorted. Qed.

Lemma push_Forall (P : Z * agent -> Prop) t a g : Forall P g -> P (t, a) -> Forall P (push t a g).
Proof. rewrite push_tins. apply tins_Forall. Qed.

Lemma pend_In g t i : In (t, i) (pend g) <-> In (t, AAct i) g.
Proof.
  induction g as [|[t' [j| |]] r IH]; simpl; [tauto | rewrite IH..].
  - split; intros [[= -> ->]|H]; auto.
  - split; [auto | intros [[=]|H]; exact H].
  - split; [auto | intros [[=]|H]; exact H].
Qed.

Lemma pend_cons_other t a rest : is_actb a = false -> pend ((t, a) :: rest) = pend rest.
Proof. destruct a; simpl; congruence. Qed.

Lemma pend_push_other t a g : is_actb a = false -> pend (push t a g) = pend g.
Proof.
  intros Ha. induction g as [|[t' a'] r IH]; simpl; [exact (pend_cons_other t a [] Ha)|].
  destruct (t' <=? t); [destruct a'; simpl; rewrite IH; reflexivity | exact (pend_cons_other t a _ Ha)].
Qed.

Lemma pend_push_act t i g : gsorted g -> pend (push t (AAct i) g) = ins t i (pend g).
Proof.
  induction g as [|[t' a'] r IH]; simpl; intros H; auto. apply StronglySorted_inv in H as [Hr Hall].
  destruct (Z.leb_spec t' t) as [L|L]; simpl.
  - rewrite (IH Hr). destruct a'; simpl; auto. rewrite (proj2 (Z.leb_le _ _) L). reflexivity.
  - rewrite ins_tins. symmetry. apply tins_head. intros [t2 i2] Hp.
    change (In (t2, i2) (pend ((t', a') :: r))) in Hp. apply pend_In in Hp as [[= <-]|Hp]; [exact L|].
    rewrite Forall_forall in Hall. specialize (Hall _ Hp). simpl in *. lia.
Qed.

Lemma ncons_push t a g : ncons (push t a g) = ((if is_consb a then 1 else 0) + ncons g)%nat.
Proof.
  induction g as [|[t' a'] r IH]; simpl; auto. destruct (t' <=? t); simpl; auto. rewrite IH. lia.
Qed.

Lemma ncons_zero_notin g t : ncons g = 0%nat -> ~ In (t, ACons) g.
Proof.
  induction g as [|[t' a'] r IH]; simpl; intros H; [tauto|].
  intros [[= -> ->]|X]; [discriminate | apply IH; [lia | exact X]].
Qed.

Lemma ncons_pos_In g : (0 < ncons g)%nat -> exists t, In (t, ACons) g.
Proof.
  induction g as [|[t [| |]] r IH]; simpl; intros H; [lia | | eauto |]; destruct (IH H) as [t' Ht']; eauto.
Qed.

Lemma ofirst_tail e g : ofirst (e :: g) -> ofirst g.
Proof. destruct e. simpl. tauto. Qed.

Lemma ofirst_all_act g : Forall (fun x => is_actb (snd x) = true) g -> ofirst g.
Proof.
  induction 1 as [|[t a] r Ha _ IH]; simpl; auto. split; [simpl in Ha; congruence | exact IH].
Qed.

Lemma ofirst_push t a g : gsorted g -> ofirst g -> is_actb a = false -> ofirst (push t a g).
Proof.
  intros Hs Ho Ha. induction g as [|[t' a'] r IH]; simpl.
  - split; auto.
  - destruct Ho as [Ho1 Ho2]. apply StronglySorted_inv in Hs as [Hr Hall]. destruct (Z.leb_spec t' t) as [L|L]; simpl.
    + split; [|apply IH; auto]. intros Ha'. apply push_Forall; [exact (Ho1 Ha') | simpl; congruence].
    + split; [|split; auto]. intros _. constructor; [simpl; lia|].
      eapply Forall_impl; [|exact Hall]. simpl. intros; lia.
Qed.

(** [g] is [rest] with activations of the caller pushed for [t] or later: what a turn at [t] does to the agenda *)
Inductive ext (t : Z) (rest : agenda) : agenda -> Prop :=
| ext_refl : ext t rest rest
| ext_push t' a g : ext t rest g -> t <= t' -> is_actb a = false -> ext t rest (push t' a g).

Lemma ext_agenda t rest g :
  gsorted rest -> Forall (fun e => t <= fst e) rest -> ext t rest g ->
  gsorted g /\ Forall (fun e => t <= fst e) g /\ pend g = pend rest /\ (ofirst rest -> ofirst g).
Proof.
  intros Hs Hl. induction 1 as [|t' a g _ (IH1 & IH2 & IH3 & IH4) Ht Ha]; [tauto|].
  split; [apply push_gsorted, IH1|]. split; [apply push_Forall; assumption|].
  split; [rewrite pend_push_other; assumption|]. intros Ho. apply ofirst_push; auto.
Qed.

Definition nonneg (acts : list activity) := Forall (fun a : activity => 0 <= fst a) acts.

Lemma spawn_pend acts : forall i t0 g, gsorted g -> pend (spawn_from i t0 acts g) = order_from i t0 acts (pend g).
Proof.
  induction acts as [|[d o] r IH]; intros i t0 g Hg; simpl; auto.
  rewrite IH by (apply push_gsorted; auto). rewrite pend_push_act by auto. reflexivity.
Qed.

Lemma spawn_gsorted acts : forall i t0 g, gsorted g -> gsorted (spawn_from i t0 acts g).
Proof. induction acts as [|[d o] r IH]; intros; simpl; auto. apply IH, push_gsorted; auto. Qed.

Lemma spawn_lb acts : forall i t0 g, nonneg acts ->
  Forall (fun e => t0 <= fst e) g -> Forall (fun e => t0 <= fst e) (spawn_from i t0 acts g).
Proof.
  induction acts as [|[d o] r IH]; intros i t0 g Hn Hg; simpl; auto. inversion Hn; subst. simpl in *.
  apply IH; auto. apply push_Forall; auto. simpl. lia.
Qed.

Lemma spawn_ncons acts : forall i t0 g, ncons (spawn_from i t0 acts g) = ncons g.
Proof. induction acts as [|[d o] r IH]; intros; simpl; auto. rewrite IH, ncons_push. reflexivity. Qed.

Lemma spawn_base acts : forall i t0 a g, nonneg acts ->
  spawn_from i t0 acts ((t0, a) :: g) = (t0, a) :: spawn_from i t0 acts g.
Proof.
  induction acts as [|[d o] r IH]; intros i t0 a g Hn; simpl; auto. inversion Hn; subst. simpl in *.
  assert (E : (t0 <=? t0 + d) = true) by (apply Z.leb_le; lia). rewrite E. apply IH; auto.
Qed.

Lemma spawn_all_act acts : forall i t0 g,
  Forall (fun x : Z * agent => is_actb (snd x) = true) g ->
  Forall (fun x : Z * agent => is_actb (snd x) = true) (spawn_from i t0 acts g).
Proof.
  induction acts as [|[d o] r IH]; intros i t0 g Hg; simpl; auto. apply IH.
  apply push_Forall; auto.
Qed.

Lemma spawn_others acts : forall i t0 g x,
  In x (spawn_from i t0 acts g) -> is_actb (snd x) = false -> In x g.
Proof.
  induction acts as [|[d o] r IH]; intros i t0 g x H Hx; simpl in *; auto. apply (IH _ _ _ _ H) in Hx as Hin.
  apply push_In in Hin as [->|Hin]; [discriminate | exact Hin].
Qed.

Fixpoint fins (l : list event) : list (Z * nat) :=
  match l with [] => [] | EFin t i :: r => (t, i) :: fins r | _ :: r => fins r end.
Fixpoint yields (l : list event) : list (Z * Z) :=
  match l with [] => [] | EYield t v :: r => (t, v) :: yields r | _ :: r => yields r end.

Lemma fins_app a b : fins (a ++ b) = fins a ++ fins b.
Proof. induction a as [|e a IH]; simpl; auto. destruct e; simpl; rewrite IH; auto. Qed.
Lemma yields_app a b : yields (a ++ b) = yields a ++ yields b.
Proof. induction a as [|e a IH]; simpl; auto. destruct e; simpl; rewrite IH; auto. Qed.

Lemma fins_In l t i : In (t, i) (fins l) <-> In (EFin t i) l.
Proof.
  induction l as [|e l IH]; simpl; [tauto|].
  destruct e; simpl; rewrite IH; try (split; [auto | intros [[=]|H]; exact H]).
  split; intros [[= -> ->]|H]; auto.
Qed.

Definition ev_time (e : event) : Z :=
  match e with
  | EFin t _ | EAbort t _ | EYield t _ | EReturn t | EResult t _ | ERaise t _ | EValueError t | EEscape t => t
  | EStuck => 0
  end.

Definition body_event (e : event) : Prop := match e with EFin _ _ | EYield _ _ => True | _ => False end.

Definition is_valb (o : option outcome) : bool := match o with Some (Val _) => true | _ => false end.
Definition is_failb (o : option outcome) : bool := match o with Some (Fail _) => true | _ => false end.
Definition succ_of (c : cfg) (l : list (Z * nat)) : list (Z * nat) :=
  filter (fun p => is_valb (outcome_of c (snd p))) l.
Definition val_of (c : cfg) (p : Z * nat) : Z := match outcome_of c (snd p) with Some (Val v) => v | _ => 0 end.
Fixpoint fail_codes (c : cfg) (l : list (Z * nat)) : list Z :=
  match l with
  | [] => []
  | p :: r => match outcome_of c (snd p) with Some (Fail e) => e :: fail_codes c r | _ => fail_codes c r end
  end.

Lemma fail_codes_app c a b : fail_codes c (a ++ b) = fail_codes c a ++ fail_codes c b.
Proof. induction a as [|p a IH]; simpl; auto. destruct (outcome_of c (snd p)) as [[|]|]; simpl; rewrite ?IH; auto. Qed.

Lemma fail_codes_nil c l : fail_codes c l = [] <-> forall p, In p l -> is_failb (outcome_of c (snd p)) = false.
Proof.
  induction l as [|q l IH]; simpl; [tauto|]. split.
  - intros H p [<-|Hp]; destruct (outcome_of c (snd q)) as [[v|e]|]; try discriminate; try reflexivity; apply IH; auto.
  - intros H. pose proof (H q (or_introl eq_refl)) as Hq.
    destruct (outcome_of c (snd q)) as [[v|e]|]; try discriminate; apply IH; auto.
Qed.

Lemma fail_codes_filter c P l :
  (forall p, In p l -> is_failb (outcome_of c (snd p)) = true -> P p = true) ->
  fail_codes c (filter P l) = fail_codes c l.
Proof.
  induction l as [|q l IH]; simpl; intros H; auto.
  destruct (P q) eqn:EP; simpl.
  - destruct (outcome_of c (snd q)) as [[|]|]; rewrite IH; auto.
  - destruct (outcome_of c (snd q)) as [[v|e]|] eqn:E; try (apply IH; auto).
    exfalso. specialize (H q (or_introl eq_refl)). rewrite E in H. simpl in H. specialize (H eq_refl). congruence.
Qed.

Lemma succ_of_app c a b : succ_of c (a ++ b) = succ_of c a ++ succ_of c b.
Proof. apply filter_app. Qed.

Lemma outcome_of_lt c i : (i < length (c_acts c))%nat -> outcome_of c i = Some (out_of (c_acts c) i).
Proof.
  intros H. unfold outcome_of, out_of. rewrite (nth_error_nth' (c_acts c) ((0, Val 0) : activity) H). reflexivity.
Qed.

Lemma length_set_nth {A} i (x : A) l : length (set_nth i x l) = length l.
Proof. revert i; induction l as [|y l IH]; intros [|i]; simpl; auto. Qed.

Lemma nth_set_nth_eq {A} i (x d : A) l : (i < length l)%nat -> nth i (set_nth i x l) d = x.
Proof. revert i; induction l as [|y l IH]; intros [|i] H; simpl in *; try lia; auto. apply IH. lia. Qed.

Lemma nth_set_nth_neq {A} i j (x d : A) l : i <> j -> nth j (set_nth i x l) d = nth j l d.
Proof. revert i j; induction l as [|y l IH]; intros [|i] [|j] H; simpl; auto; try congruence. Qed.

Definition aborts (t : Z) (l : list astate) : list event := snd (close_from 0 t l).

Lemma close_from_cons k t s l :
  snd (close_from k t (s :: l)) =
  (match s with SSleep => [EAbort t k] | _ => [] end) ++ snd (close_from (S k) t l).
Proof. simpl. destruct (close_from (S k) t l). destruct s; reflexivity. Qed.

Lemma close_from_In k t l e :
  In e (snd (close_from k t l)) <-> exists j, e = EAbort t (k + j) /\ nth j l SAborted = SSleep.
Proof.
  revert k. induction l as [|s l IH]; intros k.
  - split; [intros [] | intros ([|j] & _ & [=])].
  - rewrite close_from_cons, in_app_iff, IH. split.
    + intros [H|(j & -> & Hj)].
      * destruct s; [|destruct H..]. destruct H as [<-|[]]. exists 0%nat. rewrite Nat.add_0_r. auto.
      * exists (S j). rewrite Nat.add_succ_r. auto.
    + intros ([|j] & -> & Hj); simpl in Hj.
      * left. subst s. rewrite Nat.add_0_r. left. reflexivity.
      * right. exists j. rewrite Nat.add_succ_r. auto.
Qed.

Lemma aborts_In t l e : In e (aborts t l) <-> exists j, e = EAbort t j /\ nth j l SAborted = SSleep.
Proof. unfold aborts. rewrite close_from_In. simpl. tauto. Qed.

Lemma aborts_only t l : Forall (fun e => exists i, e = EAbort t i) (aborts t l).
Proof. apply Forall_forall. intros e H. apply aborts_In in H as (j & -> & _). eauto. Qed.

Lemma fins_aborts t l : fins (aborts t l) = [].
Proof. induction (aborts_only t l) as [|e r [i ->] _ IH]; simpl; auto. Qed.

Lemma yields_aborts t l : yields (aborts t l) = [].
Proof. induction (aborts_only t l) as [|e r [i ->] _ IH]; simpl; auto. Qed.

Lemma aborts_nil t l : (forall j, nth j l SAborted <> SSleep) -> aborts t l = [].
Proof.
  intros H. destruct (aborts t l) as [|e r] eqn:E; auto. exfalso.
  assert (X : In e (aborts t l)) by (rewrite E; left; reflexivity).
  apply aborts_In in X. destruct X as (j & _ & X). eapply H; eauto.
Qed.

Lemma first_sleep_from_Some k l j :
  first_sleep_from k l = Some j -> exists j', j = (k + j')%nat /\ nth j' l SAborted = SSleep.
Proof.
  revert k. induction l as [|s l IH]; intros k; simpl; [discriminate|].
  assert (Hr : first_sleep_from (S k) l = Some j -> exists j', j = (k + j')%nat /\ nth j' (s :: l) SAborted = SSleep).
  { intros H. apply IH in H. destruct H as (j' & -> & H). exists (S j'). split; [lia | exact H]. }
  destruct s; [|exact Hr..]. intros [= <-]. exists 0%nat. split; [lia | reflexivity].
Qed.

Lemma first_sleep_from_None k l : first_sleep_from k l = None -> forall j, nth j l SAborted <> SSleep.
Proof.
  revert k. induction l as [|s l IH]; intros k H j; simpl in *.
  - destruct j; discriminate.
  - destruct s; try discriminate; destruct j; simpl; try discriminate; eapply IH; eauto.
Qed.

Lemma weight_push t a g :
  list_sum (map weight (push t a g)) = (weight (t, a) + list_sum (map weight g))%nat.
Proof.
  induction g as [|[t' a'] r IH]; simpl; auto. destruct (t' <=? t); simpl; auto. rewrite IH. lia.
Qed.

(** where the consumer of first() goes after a turn at [t]: into its own loop body if it thinks ([0 < th]), else
    back to the iterator ([resume]) having [g] results, the queue holding [b] *)
Variant goes (c : cfg) (t : Z) (rest : agenda) (th : Z) (g : nat) (b : list Z) : cstate * agenda -> Prop :=
| G_busy : 0 < th -> goes c t rest th g b (CBusy, push (t + th) ACons rest)
| G_exit : th <= 0 -> g = c_k c -> goes c t rest th g b (CExit, push t ACons rest)
| G_wait : th <= 0 -> g <> c_k c -> b = [] -> goes c t rest th g b (CWait, rest)
| G_take : th <= 0 -> g <> c_k c -> b <> [] -> goes c t rest th g b (CTake, push t ACons rest).

Lemma goes_spec c t rest th g b :
  goes c t rest th g b (if 0 <? th then (CBusy, push (t + th) ACons rest) else resume c t rest g b).
Proof.
  destruct (Z.ltb_spec 0 th); [constructor; assumption|]. unfold resume.
  destruct (Nat.eqb_spec g (c_k c)); [constructor; assumption|]. destruct b; constructor; auto; discriminate.
Qed.

Lemma resume_spec c t rest g b : goes c t rest 0 g b (resume c t rest g b).
Proof. exact (goes_spec c t rest 0 g b). Qed.

Lemma finish_measure s t rest fe : measure (finish s t rest fe) = (list_sum (map weight rest) + 2 * length (buf s))%nat.
Proof. unfold finish. destruct (close_from 0 t (ast s)). unfold measure. simpl. lia. Qed.

Lemma step_inv c s s' :
  step c s = Some s' ->
  cs s <> CDone /\ exists t a rest, ag s = (t, a) :: rest /\
    s' = match a with
         | AAct i => act_turn c s t rest i
         | ACons => cons_turn c s t rest
         | ACancel => cancel_turn s t rest
         end.
Proof.
  unfold step. intros H. split; [intros E; rewrite E in H; discriminate|].
  destruct (ag s) as [|[t a] rest]; [destruct (cs s); discriminate|].
  exists t, a, rest. split; [reflexivity|]. destruct (cs s), a; congruence.
Qed.

Lemma step_None c s : step c s = None -> cs s = CDone \/ ag s = [].
Proof. unfold step. destruct (ag s) as [|[t []] r]; auto; destruct (cs s); auto; discriminate. Qed.

Lemma step_measure c s s' : step c s = Some s' -> (measure s' < measure s)%nat.
Proof.
  intros H. apply step_inv in H as (Hnd & t & a & rest & Hg & ->).
  assert (Hm : measure s = (weight (t, a) + list_sum (map weight rest) + 2 * length (buf s)
                            + match cs s with CBusy => 1 | _ => 0 end)%nat).
  { unfold measure. rewrite Hg. simpl. lia. }
  rewrite Hm. clear Hm. destruct a as [i| |]; simpl weight.
  - (* the summand for [CBusy] stays as it is unless the caller is woken, and then it is 0 *)
    unfold act_turn. destruct (nth i (ast s) SAborted); try (unfold skip, measure; simpl; lia).
    destruct (outcome_of c i) as [[v|e]|]; try (unfold skip, measure; simpl; lia).
    + unfold measure; simpl.
      destruct (c_mode c); simpl.
      * rewrite app_length. destruct (is_wait (cs s)); rewrite ?weight_push; simpl; lia.
      * destruct (is_on (cs s) i); rewrite ?weight_push; simpl; lia.
    + unfold measure; simpl.
      destruct (c_mode c); simpl.
      * rewrite weight_push. simpl. lia.
      * destruct (is_on (cs s) i); rewrite ?weight_push; simpl; lia.
  - unfold cons_turn. destruct (cs s) eqn:Ec; try (unfold skip, measure; simpl; rewrite Ec; lia).
    + destruct (buf s) as [|v b] eqn:Eb; [unfold skip, measure; simpl; rewrite Ec, Eb; simpl; lia|].
      destruct (goes_spec c t rest (nth (got s) (c_thinks c) 0) (S (got s)) b);
        unfold measure; simpl; rewrite ?weight_push; simpl; lia.
    + destruct (resume_spec c t rest (got s) (buf s)); try lia; unfold measure; simpl; rewrite ?weight_push; simpl; lia.
    + rewrite finish_measure. simpl. lia.
    + destruct (first_sleep_from 0 (ast s)); [unfold measure; simpl; lia | rewrite finish_measure; simpl; lia].
  - unfold cancel_turn. destruct (cs s); rewrite finish_measure; simpl; lia.
Qed.

Lemma run_halts c : forall fuel s, (measure s <= fuel)%nat -> step c (run c fuel s) = None.
Proof.
  induction fuel as [|f IH]; intros s H; simpl.
  - destruct (step c s) eqn:E; auto. apply step_measure in E. lia.
  - destruct (step c s) eqn:E; auto. apply IH. apply step_measure in E. lia.
Qed.

Definition nacts (c : cfg) : nat := length (c_acts c).
Definition FO (c : cfg) : list (Z * nat) := finish_order (c_t0 c) (c_acts c).
(** the consumer never suspends in its own loop body *)
Definition prompt (c : cfg) : Prop := forall j, nth j (c_thinks c) 0 <= 0.
Definition valid (c : cfg) : Prop := nonneg (c_acts c) /\ (c_k c <= nacts c)%nat.

Definition first_turn (c : cfg) (s : state) : Prop :=
  ev s = [] /\ exists rest, ag s = (c_t0 c, ACons) :: rest /\ Forall (fun x : Z * agent => is_actb (snd x) = true) rest.

Record InvA (c : cfg) (s : state) : Prop := {
  A_len : length (ast s) = nacts c;
  A_sorted : gsorted (ag s);
  A_now : Forall (fun e => now s <= fst e) (ag s);
  A_order : fins (ev s) ++ pend (ag s) = FO c;
  A_sleep : forall t i, In (t, i) (pend (ag s)) -> nth i (ast s) SAborted = SSleep;
  A_done : forall t i, In (t, i) (fins (ev s)) ->
           exists o, outcome_of c i = Some o /\ nth i (ast s) SAborted = SDone o;
  A_body : Forall body_event (ev s);
  A_past : Forall (fun e => ev_time e <= now s) (ev s);
  A_O : ofirst (ag s) \/ first_turn c s
}.

Record InvF (c : cfg) (s : state) : Prop := {
  F_fails : fails s = fail_codes c (fins (ev s));
  F_now : forall p, In p (fins (ev s)) -> is_failb (outcome_of c (snd p)) = true -> fst p = now s;
  F_cancel : fails s <> [] -> In (now s, ACancel) (ag s);
  F_cancel2 : forall t, In (t, ACancel) (ag s) -> t = now s /\ fails s <> []
}.

Record InvC (c : cfg) (s : state) : Prop := {
  C_ncons : ncons (ag s) = match cs s with CWait | COn _ => 0%nat | _ => 1%nat end;
  C_got : got s = length (yields (ev s));
  C_k : (got s <= c_k c)%nat;
  C_mode : match c_mode c with
           | MFirst =>
               map (val_of c) (succ_of c (fins (ev s))) = map snd (yields (ev s)) ++ buf s /\
               match cs s with
               | CWait => buf s = [] /\ (got s < c_k c)%nat
               | CTake => buf s <> [] /\ (got s < c_k c)%nat
               | CBusy => True
               | CExit => got s = c_k c
               | _ => False
               end /\
               (prompt c -> cs s <> CBusy /\
                  map fst (succ_of c (fins (ev s))) = map fst (yields (ev s)) ++ repeat (now s) (length (buf s)))
           | MCollect =>
               buf s = [] /\ got s = 0%nat /\
               match cs s with
               | CRun => True
               | COn j => nth j (ast s) SAborted = SSleep
               | _ => False
               end
           end;
  C_ytime : forall j y p, nth_error (yields (ev s)) j = Some y ->
                          nth_error (succ_of c (fins (ev s))) j = Some p -> fst p <= fst y;
  C_cp : (c_mode c = MCollect \/ prompt c) ->
         (forall t, In (t, ACons) (ag s) -> t = now s) /\
         (now s = c_t0 c \/ exists p, In p (fins (ev s)) /\ fst p = now s)
}.

Definition Inv (c : cfg) (s : state) : Prop := InvA c s /\ InvF c s /\ InvC c s.

Lemma nth_repeat_lt {A} (x d : A) n i : (i < n)%nat -> nth i (repeat x n) d = x.
Proof. revert i; induction n; intros [|i] H; simpl; try lia; auto. apply IHn. lia. Qed.

Lemma FO_In c t i : In (t, i) (FO c) -> (i < nacts c)%nat /\ t = ftime (c_t0 c) (c_acts c) i.
Proof. intros H. apply finish_order_In in H. exact H. Qed.

Lemma init_inv c : valid c -> Inv c (init c).
Proof.
  intros [Hnn Hk].
  set (own := match c_mode c, c_k c with MFirst, S _ => false | _, _ => true end).
  set (base := if own then [(c_t0 c, ACons)] else [] : agenda).
  assert (Hbs : gsorted base) by (unfold base; destruct own; repeat constructor).
  assert (Hbl : Forall (fun e : Z * agent => c_t0 c <= fst e) base)
    by (unfold base; destruct own; repeat constructor; simpl; lia).
  assert (Hbp : pend base = []) by (unfold base; destruct own; reflexivity).
  assert (Hag : ag (init c) = spawn_from 0 (c_t0 c) (c_acts c) base) by reflexivity.
  assert (Hown : forall x, In x (spawn_from 0 (c_t0 c) (c_acts c) base) -> is_actb (snd x) = false ->
                           x = (c_t0 c, ACons)).
  { intros x H Hx. apply (spawn_others _ _ _ _ _ H) in Hx. unfold base in Hx. destruct own; [|destruct Hx].
    destruct Hx as [<-|[]]. reflexivity. }
  split; [|split].
  - constructor; rewrite ?Hag; simpl.
    + apply repeat_length.
    + apply spawn_gsorted; auto.
    + apply spawn_lb; auto.
    + rewrite spawn_pend by auto. rewrite Hbp. reflexivity.
    + intros t i H. rewrite spawn_pend, Hbp in H by auto. apply FO_In in H. apply nth_repeat_lt. tauto.
    + intros t i [].
    + constructor.
    + constructor.
    + unfold base. destruct own.
      * right. split; [reflexivity|]. exists (spawn_from 0 (c_t0 c) (c_acts c) []). split.
        -- rewrite Hag. apply spawn_base; auto.
        -- apply spawn_all_act. constructor.
      * left. apply ofirst_all_act. apply spawn_all_act. constructor.
  - constructor; rewrite ?Hag; simpl.
    + reflexivity.
    + intros p [].
    + congruence.
    + intros t H. apply Hown in H; [discriminate | reflexivity].
  - constructor; rewrite ?Hag; simpl.
    + rewrite spawn_ncons. unfold base, own. destruct (c_mode c), (c_k c); reflexivity.
    + reflexivity.
    + lia.
    + destruct (c_mode c).
      * split; [reflexivity|]. split.
        -- destruct (c_k c); [reflexivity | split; [reflexivity | lia]].
        -- intros _. split; [|reflexivity]. destruct (c_k c); discriminate.
      * auto.
    + intros j y p H. destruct j; discriminate.
    + intros _. split; [|left; reflexivity]. intros t H. apply Hown in H; [|reflexivity]. inversion H; reflexivity.
Qed.

Lemma head_agenda c s t a rest :
  InvA c s -> ag s = (t, a) :: rest -> now s <= t /\ gsorted rest /\ Forall (fun e : Z * agent => t <= fst e) rest.
Proof.
  intros HA Hg. pose proof (A_now _ _ HA) as Hn. pose proof (A_sorted _ _ HA) as Hs. rewrite Hg in Hn, Hs.
  apply StronglySorted_inv in Hs. split; [exact (Forall_inv Hn) | exact Hs].
Qed.

Lemma head_time_eq c s t a rest x : InvA c s -> ag s = (t, a) :: rest -> In (now s, x) (ag s) -> t = now s.
Proof.
  intros HA Hg Hin. destruct (head_agenda _ _ _ _ _ HA Hg) as (Hnow & _ & Hrl).
  rewrite Hg in Hin. destruct Hin as [[= ->]|Hin]; [reflexivity|].
  rewrite Forall_forall in Hrl. specialize (Hrl _ Hin). simpl in Hrl. lia.
Qed.

Lemma nodup_mid (l1 l2 : list (Z * nat)) t t' i : NoDup (map snd (l1 ++ (t, i) :: l2)) -> ~ In (t', i) (l1 ++ l2).
Proof.
  rewrite map_app. simpl. intros H X. apply NoDup_remove_2 in H. apply H. rewrite <- map_app.
  exact (in_map snd _ _ X).
Qed.

Lemma act_head c s t i rest :
  InvA c s -> ag s = (t, AAct i) :: rest ->
  (i < nacts c)%nat /\ nth i (ast s) SAborted = SSleep /\ outcome_of c i = Some (out_of (c_acts c) i).
Proof.
  intros HA Hg. assert (Hin : In (t, i) (pend (ag s))) by (rewrite Hg; left; reflexivity).
  assert (HFO : In (t, i) (FO c)) by (rewrite <- (A_order _ _ HA); apply in_or_app; right; exact Hin).
  apply FO_In in HFO as [Hi _]. split; [exact Hi|]. split; [exact (A_sleep _ _ HA _ _ Hin) | apply outcome_of_lt, Hi].
Qed.

Lemma actA c s t i rest o g' b' x' n' f' :
  InvA c s -> ag s = (t, AAct i) :: rest -> outcome_of c i = Some o -> ext t rest g' ->
  InvA c {| now := t; ag := g'; ast := set_nth i (SDone o) (ast s); buf := b'; cs := x'; got := n'; fails := f';
            ev := ev s ++ [EFin t i] |}.
Proof.
  intros HA Hg Ho He. destruct (head_agenda _ _ _ _ _ HA Hg) as (Hnow & Hrs & Hrl).
  destruct (ext_agenda _ _ _ Hrs Hrl He) as (Hs & Hlb & Hp & HO).
  destruct (act_head _ _ _ _ _ HA Hg) as (Hi & _ & _).
  pose proof (A_order _ _ HA) as Hord. rewrite Hg in Hord. simpl in Hord.
  pose proof (finish_order_nodup (c_t0 c) (c_acts c)) as Hnd. fold (FO c) in Hnd. rewrite <- Hord in Hnd.
  assert (Hni : forall t', ~ In (t', i) (fins (ev s)) /\ ~ In (t', i) (pend rest)).
  { intros t'. split; intros X; apply (nodup_mid _ _ _ t' _ Hnd), in_or_app; auto. }
  constructor; simpl.
  - rewrite length_set_nth. apply (A_len _ _ HA).
  - exact Hs.
  - exact Hlb.
  - rewrite fins_app, Hp. simpl. rewrite <- app_assoc. exact Hord.
  - intros t' j Hj. rewrite Hp in Hj. rewrite nth_set_nth_neq.
    + apply (A_sleep _ _ HA t' j). rewrite Hg. simpl. right. exact Hj.
    + intros ->. exact (proj2 (Hni t') Hj).
  - intros t' j Hj. rewrite fins_app in Hj. simpl in Hj. apply in_app_or in Hj. destruct Hj as [Hj|[[= <- <-]|[]]].
    + destruct (A_done _ _ HA t' j Hj) as (o' & H1 & H2). exists o'. split; auto.
      rewrite nth_set_nth_neq; auto. intros ->. exact (proj1 (Hni t') Hj).
    + exists o. split; auto. apply nth_set_nth_eq. rewrite (A_len _ _ HA). exact Hi.
  - apply Forall_app. split; [apply (A_body _ _ HA) | repeat constructor].
  - apply Forall_app. split.
    + eapply Forall_impl; [|apply (A_past _ _ HA)]. simpl. intros. lia.
    + repeat constructor. simpl. lia.
  - left. apply HO. destruct (A_O _ _ HA) as [H|(_ & r & H & _)].
    + rewrite Hg in H. eapply ofirst_tail; eauto.
    + rewrite Hg in H. discriminate.
Qed.

Lemma consA c s t a rest g' b' x' n' f' ys e' :
  InvA c s -> ag s = (t, a) :: rest -> is_actb a = false -> ext t rest g' ->
  Forall body_event ys -> Forall (fun e => ev_time e <= t) ys -> fins ys = [] -> e' = ev s ++ ys ->
  InvA c {| now := t; ag := g'; ast := ast s; buf := b'; cs := x'; got := n'; fails := f'; ev := e' |}.
Proof.
  intros HA Hg Ha He Hb Ht Hf ->. destruct (head_agenda _ _ _ _ _ HA Hg) as (Hnow & Hrs & Hrl).
  destruct (ext_agenda _ _ _ Hrs Hrl He) as (Hs & Hlb & Hp & HO).
  pose proof (A_order _ _ HA) as Hord. rewrite Hg, pend_cons_other in Hord by auto.
  constructor; simpl; rewrite ?fins_app, ?Hf, ?app_nil_r, ?Hp.
  - apply (A_len _ _ HA).
  - exact Hs.
  - exact Hlb.
  - exact Hord.
  - intros t' j Hj. apply (A_sleep _ _ HA t' j). rewrite Hg, pend_cons_other by auto. exact Hj.
  - exact (A_done _ _ HA).
  - apply Forall_app. split; [apply (A_body _ _ HA) | exact Hb].
  - apply Forall_app. split; [|exact Ht].
    eapply Forall_impl; [|apply (A_past _ _ HA)]. simpl. intros. lia.
  - left. apply HO. destruct (A_O _ _ HA) as [H|(_ & r & H & Hr)].
    + rewrite Hg in H. eapply ofirst_tail; eauto.
    + rewrite Hg in H. inversion H; subst. apply ofirst_all_act. exact Hr.
Qed.

Lemma fails_head_now c s t a rest : InvA c s -> InvF c s -> ag s = (t, a) :: rest -> fails s <> [] -> t = now s.
Proof. intros HA HF Hg Hf. exact (head_time_eq _ _ _ _ _ _ HA Hg (F_cancel _ _ HF Hf)). Qed.

Lemma failing_fails c s p : InvF c s -> In p (fins (ev s)) -> is_failb (outcome_of c (snd p)) = true -> fails s <> [].
Proof.
  intros HF Hp Hfl X. rewrite (F_fails _ _ HF) in X. rewrite (proj1 (fail_codes_nil _ _) X p Hp) in Hfl. discriminate.
Qed.

Lemma keepF c s t a rest g' l' b' x' n' ys e' :
  InvA c s -> InvF c s -> ag s = (t, a) :: rest -> a <> ACancel ->
  (forall t', In (t', ACancel) g' <-> In (t', ACancel) rest) ->
  (forall p, In p (fins ys) -> fst p = t /\ is_failb (outcome_of c (snd p)) = false) -> e' = ev s ++ ys ->
  InvF c {| now := t; ag := g'; ast := l'; buf := b'; cs := x'; got := n'; fails := fails s; ev := e' |}.
Proof.
  intros HA HF Hg Ha Hc Hy ->.
  assert (Hnil : fail_codes c (fins ys) = []) by (apply fail_codes_nil; intros p Hp; apply Hy, Hp).
  constructor; simpl.
  - rewrite fins_app, fail_codes_app, Hnil, app_nil_r. apply (F_fails _ _ HF).
  - intros p Hp Hfl. rewrite fins_app in Hp. apply in_app_or in Hp. destruct Hp as [Hp|Hp].
    + rewrite (F_now _ _ HF p Hp Hfl). symmetry.
      exact (fails_head_now _ _ _ _ _ HA HF Hg (failing_fails _ _ _ HF Hp Hfl)).
    + destruct (Hy p Hp) as [_ X]. congruence.
  - intros Hf. pose proof (fails_head_now _ _ _ _ _ HA HF Hg Hf) as ->. apply Hc.
    pose proof (F_cancel _ _ HF Hf) as Hin. rewrite Hg in Hin. destruct Hin as [Hin|Hin]; auto.
    inversion Hin; subst. congruence.
  - intros t' Ht'. apply Hc in Ht'. assert (Hin : In (t', ACancel) (ag s)) by (rewrite Hg; right; auto).
    destruct (F_cancel2 _ _ HF t' Hin) as [-> Hf]. split; auto. symmetry.
    exact (fails_head_now _ _ _ _ _ HA HF Hg Hf).
Qed.

Lemma failF c s t i rest e g' l' b' x' n' :
  InvA c s -> InvF c s -> ag s = (t, AAct i) :: rest -> outcome_of c i = Some (Fail e) ->
  (forall t', In (t', ACancel) g' <-> (t' = t \/ In (t', ACancel) rest)) ->
  InvF c {| now := t; ag := g'; ast := l'; buf := b'; cs := x'; got := n'; fails := fails s ++ [e];
            ev := ev s ++ [EFin t i] |}.
Proof.
  intros HA HF Hg Ho Hc. constructor; simpl.
  - rewrite fins_app, fail_codes_app. simpl. rewrite Ho. rewrite (F_fails _ _ HF). reflexivity.
  - intros p Hp Hfl. rewrite fins_app in Hp. apply in_app_or in Hp. destruct Hp as [Hp|[<-|[]]]; auto.
    rewrite (F_now _ _ HF p Hp Hfl). symmetry.
    exact (fails_head_now _ _ _ _ _ HA HF Hg (failing_fails _ _ _ HF Hp Hfl)).
  - intros _. apply Hc. left. reflexivity.
  - intros t' Ht'. split; [|intros X; apply app_eq_nil in X; destruct X; discriminate].
    apply Hc in Ht'. destruct Ht' as [->|Ht']; auto.
    assert (Hin : In (t', ACancel) (ag s)) by (rewrite Hg; right; auto).
    destruct (F_cancel2 _ _ HF t' Hin) as [-> Hf]. symmetry. exact (fails_head_now _ _ _ _ _ HA HF Hg Hf).
Qed.

Lemma push_In_other t a g t' a' : a' <> a -> In (t', a') (push t a g) <-> In (t', a') g.
Proof. intros H. rewrite push_In. split; [intros [[= _ X]|X]; [contradiction | exact X] | auto]. Qed.

Lemma push_In_same t a g t' : In (t', a) (push t a g) <-> t' = t \/ In (t', a) g.
Proof. rewrite push_In. split; (intros [H|H]; [left; congruence | auto]). Qed.

Lemma cp_head_now c s t a rest :
  InvA c s -> InvC c s -> (c_mode c = MCollect \/ prompt c) -> ag s = (t, a) :: rest ->
  (0 < ncons (ag s))%nat -> t = now s.
Proof.
  intros HA HC Hcp Hg Hn. destruct (ncons_pos_In _ Hn) as [t' Ht'].
  destruct (C_cp _ _ HC Hcp) as [H1 _]. pose proof (H1 t' Ht') as ->. exact (head_time_eq _ _ _ _ _ _ HA Hg Ht').
Qed.

Lemma cpC c s t a rest g' e' :
  InvA c s -> InvC c s -> ag s = (t, a) :: rest ->
  (forall t', In (t', ACons) g' -> t' = t \/ In (t', ACons) rest) ->
  ((a = ACons /\ fins e' = fins (ev s)) \/ exists i, fins e' = fins (ev s) ++ [(t, i)]) ->
  (c_mode c = MCollect \/ prompt c) ->
  (forall t', In (t', ACons) g' -> t' = t) /\ (t = c_t0 c \/ exists p, In p (fins e') /\ fst p = t).
Proof.
  intros HA HC Hg Hin He Hcp. destruct (C_cp _ _ HC Hcp) as [H1 H2].
  assert (Hold : forall t', In (t', ACons) (ag s) -> t' = t).
  { intros t' X. pose proof (H1 _ X) as ->. symmetry. exact (head_time_eq _ _ _ _ _ _ HA Hg X). }
  split.
  - intros t' X. destruct (Hin _ X) as [->|Y]; [reflexivity|]. apply Hold. rewrite Hg. right. exact Y.
  - destruct He as [[-> ->]|[i ->]].
    + rewrite (H1 t) by (rewrite Hg; left; reflexivity). exact H2.
    + right. exists (t, i). split; [apply in_or_app; right; left; reflexivity | reflexivity].
Qed.

Lemma fins_past c s p : InvA c s -> In p (fins (ev s)) -> fst p <= now s.
Proof.
  intros HA Hp. destruct p as [t i]. apply fins_In in Hp. pose proof (A_past _ _ HA) as H.
  rewrite Forall_forall in H. apply (H _ Hp).
Qed.

Lemma ys_le_succ c s : InvC c s -> (length (yields (ev s)) <= length (succ_of c (fins (ev s))))%nat.
Proof.
  intros HC. pose proof (C_mode _ _ HC) as Hm. destruct (c_mode c).
  - destruct Hm as [Hm _]. apply (f_equal (@length Z)) in Hm. rewrite app_length, !map_length in Hm. lia.
  - destruct Hm as (_ & Hg & _). rewrite <- (C_got _ _ HC), Hg. lia.
Qed.

Lemma ytime_ext (ys : list (Z * Z)) (l extra : list (Z * nat)) :
  (length ys <= length l)%nat ->
  (forall j y p, nth_error ys j = Some y -> nth_error l j = Some p -> fst p <= fst y) ->
  forall j y p, nth_error ys j = Some y -> nth_error (l ++ extra) j = Some p -> fst p <= fst y.
Proof.
  intros Hl H j y p Hy Hp. assert (Hj : (j < length ys)%nat) by (apply nth_error_Some; congruence).
  rewrite nth_error_app1 in Hp by lia. eauto.
Qed.

Lemma ytime_snoc (ys : list (Z * Z)) (l : list (Z * nat)) t v :
  (forall j y p, nth_error ys j = Some y -> nth_error l j = Some p -> fst p <= fst y) ->
  (forall p, In p l -> fst p <= t) ->
  forall j y p, nth_error (ys ++ [(t, v)]) j = Some y -> nth_error l j = Some p -> fst p <= fst y.
Proof.
  intros H Hl j y p Hy Hp. apply nth_error_snoc in Hy. destruct Hy as [Hy|[_ ->]]; eauto.
  simpl. apply Hl. eapply nth_error_In; eauto.
Qed.

Lemma fins_snoc_fin l t i : fins (l ++ [EFin t i]) = fins l ++ [(t, i)].
Proof. apply fins_app. Qed.
Lemma yields_snoc_fin l t i : yields (l ++ [EFin t i]) = yields l.
Proof. rewrite yields_app. apply app_nil_r. Qed.
Lemma fins_snoc_yield l t v : fins (l ++ [EYield t v]) = fins l.
Proof. rewrite fins_app. apply app_nil_r. Qed.
Lemma yields_snoc_yield l t v : yields (l ++ [EYield t v]) = yields l ++ [(t, v)].
Proof. apply yields_app. Qed.

Lemma succ_snoc_val c l p : is_valb (outcome_of c (snd p)) = true -> succ_of c (l ++ [p]) = succ_of c l ++ [p].
Proof. intros H. rewrite succ_of_app. simpl. rewrite H. reflexivity. Qed.

Lemma succ_snoc_other c l p : is_valb (outcome_of c (snd p)) = false -> succ_of c (l ++ [p]) = succ_of c l.
Proof. intros H. rewrite succ_of_app. simpl. rewrite H. apply app_nil_r. Qed.

Lemma cs_mode c s : InvC c s -> c_mode c = match cs s with CRun | COn _ => MCollect | _ => MFirst end.
Proof.
  intros HC. pose proof (C_mode _ _ HC) as Hm.
  destruct (c_mode c), (cs s); try reflexivity; destruct Hm as (_ & H1 & H2); contradiction.
Qed.

(** with a prompt consumer a non-empty queue means that the consumer has a turn coming in this time step:
    what waits in the queue arrived now *)
Lemma prompt_repeat c s t a rest :
  InvA c s -> InvC c s -> c_mode c = MFirst -> prompt c -> ag s = (t, a) :: rest ->
  repeat (now s) (length (buf s)) = repeat t (length (buf s)).
Proof.
  intros HA HC Hm Hp Hg. destruct (buf s) as [|b0 br] eqn:Eb; [reflexivity|].
  rewrite (cp_head_now _ _ _ _ _ HA HC (or_intror Hp) Hg); [reflexivity|].
  pose proof (C_mode _ _ HC) as X. rewrite Hm, Eb in X. destruct X as (_ & X & Y). destruct (Y Hp) as [Y1 _].
  rewrite (C_ncons _ _ HC). destruct (cs s); try lia; try contradiction; try congruence.
  destruct X as [[=] _].
Qed.

Lemma is_on_true x i : is_on x i = true -> x = COn i.
Proof. destruct x; simpl; try discriminate. intros H. apply Nat.eqb_eq in H. congruence. Qed.

Lemma collect_no_yields c s : InvC c s -> c_mode c = MCollect -> yields (ev s) = [].
Proof.
  intros HC Hm. pose proof (C_mode _ _ HC) as X. rewrite Hm in X. destruct X as (_ & X & _).
  pose proof (C_got _ _ HC) as Y. rewrite X in Y. destruct (yields (ev s)); [reflexivity | discriminate].
Qed.

Lemma ext_push1 t rest a g : ext t rest g -> is_actb a = false -> ext t rest (push t a g).
Proof. intros H Ha. apply ext_push; [exact H | apply Z.le_refl | exact Ha]. Qed.

Lemma ext_if t rest (b : bool) g1 g2 : ext t rest g1 -> ext t rest g2 -> ext t rest (if b then g1 else g2).
Proof. destruct b; auto. Qed.

Create HintDb ext.
#[local] Hint Resolve ext_refl ext_push1 ext_if : ext.

Lemma act_val_first c s t i rest v :
  Inv c s -> ag s = (t, AAct i) :: rest -> outcome_of c i = Some (Val v) -> c_mode c = MFirst ->
  InvC c {| now := t;
            ag := if is_wait (cs s) then push t ACons rest else rest;
            ast := set_nth i (SDone (Val v)) (ast s);
            buf := buf s ++ [v];
            cs := if is_wait (cs s) then CTake else cs s;
            got := got s; fails := fails s; ev := ev s ++ [EFin t i] |}.
Proof.
  intros (HA & HF & HC) Hg Ho Hm.
  assert (Hvb : is_valb (outcome_of c (snd (t, i))) = true) by (simpl; rewrite Ho; reflexivity).
  pose proof (C_mode _ _ HC) as HM. rewrite Hm in HM. destruct HM as (HM1 & HM2 & HM3).
  pose proof (C_ncons _ _ HC) as Hnc. rewrite Hg in Hnc. simpl in Hnc.
  constructor; simpl.
  - destruct (cs s); simpl in *; rewrite ?ncons_push; simpl; lia.
  - rewrite yields_snoc_fin. apply (C_got _ _ HC).
  - apply (C_k _ _ HC).
  - rewrite Hm, fins_snoc_fin, yields_snoc_fin, succ_snoc_val by auto. split; [|split].
    + rewrite map_app, HM1. simpl. unfold val_of. simpl. rewrite Ho. rewrite <- app_assoc. reflexivity.
    + assert (Hne : buf s ++ [v] <> []) by (intros X; apply app_eq_nil in X as [_ [=]]).
      destruct (cs s); simpl in *; try contradiction; tauto.
    + intros Hp. destruct (HM3 Hp) as [Hb Ht]. split.
      * destruct (cs s); simpl; congruence.
      * rewrite map_app, Ht, (prompt_repeat _ _ _ _ _ HA HC Hm Hp Hg), app_length, Nat.add_1_r. simpl.
        rewrite repeat_cons, app_assoc. reflexivity.
  - rewrite yields_snoc_fin, fins_snoc_fin, succ_snoc_val by auto.
    apply ytime_ext; [apply ys_le_succ; auto | apply (C_ytime _ _ HC)].
  - apply (cpC c s t (AAct i) rest); auto.
    + intros t' H. destruct (is_wait (cs s)); [apply push_In_same in H|]; tauto.
    + right. exists i. apply fins_snoc_fin.
Qed.

Lemma act_fail_first c s t i rest e :
  Inv c s -> ag s = (t, AAct i) :: rest -> outcome_of c i = Some (Fail e) -> c_mode c = MFirst ->
  InvC c {| now := t; ag := push t ACancel rest; ast := set_nth i (SDone (Fail e)) (ast s); buf := buf s; cs := cs s;
            got := got s; fails := fails s ++ [e]; ev := ev s ++ [EFin t i] |}.
Proof.
  intros (HA & HF & HC) Hg Ho Hm.
  assert (Hvb : is_valb (outcome_of c (snd (t, i))) = false) by (simpl; rewrite Ho; reflexivity).
  pose proof (C_mode _ _ HC) as HM. rewrite Hm in HM. destruct HM as (HM1 & HM2 & HM3).
  pose proof (C_ncons _ _ HC) as Hnc. rewrite Hg in Hnc. simpl in Hnc.
  constructor; simpl.
  - rewrite ncons_push. exact Hnc.
  - rewrite yields_snoc_fin. apply (C_got _ _ HC).
  - apply (C_k _ _ HC).
  - rewrite Hm, fins_snoc_fin, yields_snoc_fin, succ_snoc_other by auto. split; [exact HM1 | split; [exact HM2|]].
    intros Hp. destruct (HM3 Hp) as [Hb Ht]. split; [exact Hb|].
    rewrite Ht, (prompt_repeat _ _ _ _ _ HA HC Hm Hp Hg). reflexivity.
  - rewrite yields_snoc_fin, fins_snoc_fin, succ_snoc_other by auto. apply (C_ytime _ _ HC).
  - apply (cpC c s t (AAct i) rest); auto.
    + intros t' H. right. revert H. apply push_In_other. discriminate.
    + right. exists i. apply fins_snoc_fin.
Qed.

(** [g1] is the rest of the agenda, with the cancel signal if the activity failed *)
Lemma act_collect c s t i rest o g1 f' :
  Inv c s -> ag s = (t, AAct i) :: rest -> c_mode c = MCollect ->
  ncons g1 = ncons rest -> (forall t', In (t', ACons) g1 -> In (t', ACons) rest) ->
  InvC c {| now := t;
            ag := if is_on (cs s) i then push t ACons g1 else g1;
            ast := set_nth i (SDone o) (ast s);
            buf := buf s;
            cs := if is_on (cs s) i then CRun else cs s;
            got := got s; fails := f'; ev := ev s ++ [EFin t i] |}.
Proof.
  intros (HA & HF & HC) Hg Hm Hn1 Hin1.
  pose proof (C_mode _ _ HC) as HM. rewrite Hm in HM. destruct HM as (HM1 & HM2 & HM3).
  pose proof (C_ncons _ _ HC) as Hnc. rewrite Hg in Hnc. simpl in Hnc.
  constructor; simpl.
  - destruct (is_on (cs s) i) eqn:E.
    + apply is_on_true in E. rewrite E in Hnc. rewrite ncons_push, Hn1. simpl. lia.
    + rewrite Hn1. exact Hnc.
  - rewrite yields_snoc_fin. apply (C_got _ _ HC).
  - apply (C_k _ _ HC).
  - rewrite Hm. split; [auto|]. split; [auto|]. destruct (is_on (cs s) i) eqn:E; [exact I|].
    destruct (cs s) as [| | | | |j|] eqn:Ec; try contradiction; auto.
    rewrite nth_set_nth_neq; auto. intros <-. simpl in E. rewrite Nat.eqb_refl in E. discriminate.
  - rewrite yields_snoc_fin, (collect_no_yields _ _ HC Hm). intros [|j] y p [=].
  - apply (cpC c s t (AAct i) rest); auto.
    + intros t' H. destruct (is_on (cs s) i); [apply push_In_same in H as [H|H]|]; auto.
    + right. exists i. apply fins_snoc_fin.
Qed.

Lemma K_act c s t i rest : Inv c s -> ag s = (t, AAct i) :: rest -> Inv c (act_turn c s t rest i).
Proof.
  intros HI Hg. pose proof HI as (HA & HF & HC). destruct (act_head _ _ _ _ _ HA Hg) as (_ & Hsl & Ho).
  unfold act_turn. rewrite Hsl, Ho. split; [|split].
  - destruct (out_of (c_acts c) i), (c_mode c); apply (actA _ _ _ _ rest); auto with ext.
  - destruct (out_of (c_acts c) i) as [v|e]; cbv zeta.
    + apply (keepF _ _ _ (AAct i) rest) with (ys := [EFin t i]); auto; [discriminate | |].
      * intros t'. destruct (match c_mode c with MFirst => _ | MCollect => _ end);
          [apply push_In_other; discriminate | reflexivity].
      * intros p [<-|[]]. simpl. rewrite Ho. auto.
    + apply (failF _ _ _ _ rest); auto. intros t'.
      destruct (match c_mode c with MFirst => _ | MCollect => _ end);
        [rewrite push_In_other by discriminate|]; apply push_In_same.
  - destruct (c_mode c) eqn:Hm, (out_of (c_acts c) i) as [v|e]; cbv zeta.
    + apply act_val_first; auto.
    + apply act_fail_first; auto.
    + apply (act_collect _ _ _ _ rest); auto.
    + apply (act_collect _ _ _ _ rest); auto; [apply ncons_push | intros t'; apply push_In_other; discriminate].
Qed.

Lemma K_take c s t rest v b x g' :
  Inv c s -> ag s = (t, ACons) :: rest -> cs s = CTake -> buf s = v :: b ->
  goes c t rest (nth (got s) (c_thinks c) 0) (S (got s)) b (x, g') ->
  Inv c {| now := t; ag := g'; ast := ast s; buf := b; cs := x; got := S (got s);
           fails := fails s; ev := ev s ++ [EYield t v] |}.
Proof.
  intros (HA & HF & HC) Hg Hcs Hb Hr.
  assert (Hm : c_mode c = MFirst) by (rewrite (cs_mode _ _ HC), Hcs; reflexivity).
  pose proof (C_mode _ _ HC) as HM. rewrite Hm, Hcs, Hb in HM. destruct HM as (HM1 & [_ HM2] & HM3).
  pose proof (C_ncons _ _ HC) as Hnc. rewrite Hg, Hcs in Hnc. simpl in Hnc.
  assert (Hhead : In (t, ACons) (ag s)) by (rewrite Hg; left; reflexivity).
  assert (He : ext t rest g').
  { inversion Hr; subst; auto with ext. apply ext_push; [apply ext_refl | lia | reflexivity]. }
  assert (Hth : prompt c -> nth (got s) (c_thinks c) 0 <= 0) by (intros Hp; apply Hp).
  assert (Hin : forall t' a, In (t', a) g' ->
            (a = ACons /\ (0 < nth (got s) (c_thinks c) 0 \/ t' = t)) \/ In (t', a) rest).
  { intros t' a. inversion Hr; auto; intros X; apply push_In in X as [[= -> ->]|X]; auto. }
  split; [|split].
  - apply (consA c s t ACons rest) with (ys := [EYield t v]); auto.
    + repeat constructor.
    + repeat constructor. simpl. lia.
  - apply (keepF c s t ACons rest) with (ys := [EYield t v]); auto; [discriminate | | intros p []].
    intros t'. split; [intros X; apply Hin in X as [[[=] _]|X]; exact X|].
    inversion Hr; auto; apply push_In_other; discriminate.
  - constructor; simpl.
    + inversion Hr; subst; rewrite ?ncons_push; simpl; lia.
    + rewrite yields_snoc_yield, app_length. simpl. rewrite (C_got _ _ HC). lia.
    + lia.
    + rewrite Hm, fins_snoc_yield, yields_snoc_yield. split; [|split].
      * rewrite map_app, HM1. simpl. rewrite <- app_assoc. reflexivity.
      * inversion Hr; subst; auto; split; auto; lia.
      * intros Hp. destruct (HM3 Hp) as [_ Ht]. split; [inversion Hr; subst; [specialize (Hth Hp); lia | discriminate..]|].
        destruct (C_cp _ _ HC (or_intror Hp)) as [H1 _]. pose proof (H1 _ Hhead) as ->.
        rewrite Ht, map_app. simpl. rewrite <- app_assoc. reflexivity.
    + rewrite yields_snoc_yield, fins_snoc_yield. apply ytime_snoc; [apply (C_ytime _ _ HC)|].
      intros p Hp. apply filter_In in Hp as [Hp _]. pose proof (fins_past _ _ _ HA Hp).
      destruct (head_agenda _ _ _ _ _ HA Hg). lia.
    + intros Hcp. assert (Hp : prompt c) by (destruct Hcp; [congruence | assumption]).
      apply (cpC c s t ACons rest); auto.
      * intros t' X. apply Hin in X as [[_ [X| ->]]|X]; auto. specialize (Hth Hp). lia.
      * left. split; [reflexivity | apply fins_snoc_yield].
Qed.

Lemma K_busy_resume c s t rest x g' :
  Inv c s -> ag s = (t, ACons) :: rest -> cs s = CBusy ->
  goes c t rest 0 (got s) (buf s) (x, g') ->
  Inv c {| now := t; ag := g'; ast := ast s; buf := buf s; cs := x; got := got s;
           fails := fails s; ev := ev s |}.
Proof.
  intros (HA & HF & HC) Hg Hcs Hr.
  assert (Hm : c_mode c = MFirst) by (rewrite (cs_mode _ _ HC), Hcs; reflexivity).
  pose proof (C_mode _ _ HC) as HM. rewrite Hm, Hcs in HM. destruct HM as (HM1 & _ & HM3).
  pose proof (C_ncons _ _ HC) as Hnc. rewrite Hg, Hcs in Hnc. simpl in Hnc.
  pose proof (C_k _ _ HC) as Hk.
  assert (Hnp : ~ prompt c). { intros Hp. destruct (HM3 Hp) as [X _]. congruence. }
  split; [|split].
  - apply (consA c s t ACons rest) with (ys := []); auto; [inversion Hr; try lia; auto with ext | symmetry; apply app_nil_r].
  - apply (keepF c s t ACons rest) with (ys := []); auto; [discriminate | | intros p [] | symmetry; apply app_nil_r].
    intros t'. inversion Hr; try lia; try reflexivity; apply push_In_other; discriminate.
  - constructor; simpl.
    + inversion Hr; subst; rewrite ?ncons_push; simpl; lia.
    + apply (C_got _ _ HC).
    + exact Hk.
    + rewrite Hm. split; [exact HM1|]. split; [|intros Hp; contradiction].
      inversion Hr; subst; auto; split; auto; lia.
    + apply (C_ytime _ _ HC).
    + intros [X|X]; [congruence | contradiction].
Qed.

Lemma K_run_on c s t rest j :
  Inv c s -> ag s = (t, ACons) :: rest -> cs s = CRun -> first_sleep_from 0 (ast s) = Some j ->
  Inv c {| now := t; ag := rest; ast := ast s; buf := buf s; cs := COn j; got := got s;
           fails := fails s; ev := ev s |}.
Proof.
  intros (HA & HF & HC) Hg Hcs Hj.
  assert (Hm : c_mode c = MCollect) by (rewrite (cs_mode _ _ HC), Hcs; reflexivity).
  pose proof (C_mode _ _ HC) as HM. rewrite Hm, Hcs in HM. destruct HM as (HM1 & HM2 & _).
  pose proof (C_ncons _ _ HC) as Hnc. rewrite Hg, Hcs in Hnc. simpl in Hnc.
  split; [|split].
  - apply (consA c s t ACons rest) with (ys := []); auto with ext. symmetry. apply app_nil_r.
  - apply (keepF c s t ACons rest) with (ys := []); auto; [discriminate | tauto | intros p [] | symmetry; apply app_nil_r].
  - constructor; simpl.
    + lia.
    + apply (C_got _ _ HC).
    + apply (C_k _ _ HC).
    + rewrite Hm. split; auto. split; auto. apply first_sleep_from_Some in Hj.
      destruct Hj as (j' & -> & Hj). exact Hj.
    + apply (C_ytime _ _ HC).
    + apply (cpC c s t ACons rest); auto.
Qed.

(** how the call ends: the turn [(t, a)] at the head of the agenda and the event that it reports *)
Variant final_kind (s : state) (t : Z) : agent -> event -> Prop :=
| Fin_return : cs s = CExit -> final_kind s t ACons (EReturn t)
| Fin_collect : cs s = CRun -> first_sleep_from 0 (ast s) = None ->
    final_kind s t ACons (match fails s with [] => EResult t (results (ast s)) | _ => ERaise t (fails s) end)
| Fin_escape : cs s = CBusy -> final_kind s t ACancel (EEscape t)
| Fin_cancel : cs s <> CBusy -> final_kind s t ACancel (ERaise t (fails s)).

Definition final_step (s s' : state) : Prop :=
  exists t a rest fe, ag s = (t, a) :: rest /\ s' = finish s t rest fe /\ final_kind s t a fe.

Lemma finish_cs s t rest fe : cs (finish s t rest fe) = CDone.
Proof. unfold finish. destruct (close_from 0 t (ast s)). reflexivity. Qed.

Lemma finish_ev s t rest fe : ev (finish s t rest fe) = ev s ++ aborts t (ast s) ++ [fe].
Proof. unfold finish, aborts. destruct (close_from 0 t (ast s)). reflexivity. Qed.

Lemma step_cases c s s' :
  Inv c s -> step c s = Some s' -> (cs s' <> CDone /\ Inv c s') \/ (cs s' = CDone /\ final_step s s').
Proof.
  intros HI Hst. pose proof HI as (HA & HF & HC). apply step_inv in Hst as (Hnd & t & a & rest & Hg & ->).
  assert (Hfin : forall fe, final_kind s t a fe ->
                 cs (finish s t rest fe) = CDone /\ final_step s (finish s t rest fe)).
  { intros fe Hk. split; [apply finish_cs | exists t, a, rest, fe; auto]. }
  destruct a as [i| |].
  - left. split; [|apply K_act; assumption].
    destruct (act_head _ _ _ _ _ HA Hg) as (_ & Hsl & Ho). unfold act_turn. rewrite Hsl, Ho.
    destruct (out_of (c_acts c) i), (c_mode c); simpl;
      try destruct (is_wait (cs s)); try destruct (is_on (cs s) i); (discriminate || exact Hnd).
  - pose proof (C_ncons _ _ HC) as Hnc. rewrite Hg in Hnc. simpl in Hnc.
    unfold cons_turn. destruct (cs s) eqn:Hcs; try (exfalso; lia); try congruence.
    + (* CTake *)
      left. assert (Hm : c_mode c = MFirst) by (rewrite (cs_mode _ _ HC), Hcs; reflexivity).
      pose proof (C_mode _ _ HC) as HM. rewrite Hm, Hcs in HM. destruct HM as (_ & [Hb _] & _).
      destruct (buf s) as [|v b] eqn:Eb; [congruence|].
      generalize (goes_spec c t rest (nth (got s) (c_thinks c) 0) (S (got s)) b).
      destruct (if 0 <? nth (got s) (c_thinks c) 0 then _ else _) as [x g']. intros Hr.
      split; [simpl; inversion Hr; discriminate | exact (K_take _ _ _ _ _ _ _ _ HI Hg Hcs Eb Hr)].
    + (* CBusy *)
      left. pose proof (resume_spec c t rest (got s) (buf s)) as Hr. destruct (resume c t rest (got s) (buf s)) as [x g'].
      split; [simpl; inversion Hr; try discriminate; lia | exact (K_busy_resume _ _ _ _ _ _ HI Hg Hcs Hr)].
    + (* CExit *)
      right. apply Hfin. constructor. exact Hcs.
    + (* CRun *)
      destruct (first_sleep_from 0 (ast s)) as [j|] eqn:Ej.
      * left. split; [simpl; discriminate | exact (K_run_on _ _ _ _ _ HI Hg Hcs Ej)].
      * right. apply Hfin. constructor; assumption.
  - right. unfold cancel_turn. destruct (cs s) eqn:Hcs; apply Hfin;
      first [ apply Fin_escape; exact Hcs | apply Fin_cancel; rewrite Hcs; discriminate ].
Qed.

Lemma all_done_succ c s :
  InvA c s -> InvF c s -> ag s = [] -> fails s = [] -> succ_of c (fins (ev s)) = fins (ev s) /\ length (fins (ev s)) = nacts c.
Proof.
  intros HA HF Hg Hf. pose proof (A_order _ _ HA) as Ho. rewrite Hg in Ho. simpl in Ho. rewrite app_nil_r in Ho.
  split.
  - apply filter_all. intros p Hp. rewrite (F_fails _ _ HF) in Hf. pose proof (proj1 (fail_codes_nil _ _) Hf p Hp) as X.
    rewrite Ho in Hp. destruct p as [t i]. apply FO_In in Hp. destruct Hp as [Hi _]. simpl in *.
    rewrite (outcome_of_lt _ _ Hi) in *. destruct (out_of (c_acts c) i); simpl in *; congruence.
  - rewrite Ho. apply finish_order_length.
Qed.

Lemma sleep_lt c s i : InvA c s -> nth i (ast s) SAborted = SSleep -> (i < nacts c)%nat.
Proof.
  intros HA H. rewrite <- (A_len _ _ HA). destruct (Nat.lt_ge_cases i (length (ast s))); auto.
  rewrite nth_overflow in H by lia. discriminate.
Qed.

Lemma fate c s i :
  InvA c s -> (i < nacts c)%nat ->
  let p := (ftime (c_t0 c) (c_acts c) i, i) in
  (In p (fins (ev s)) /\ nth i (ast s) SAborted = SDone (out_of (c_acts c) i)) \/
  (In p (pend (ag s)) /\ nth i (ast s) SAborted = SSleep).
Proof.
  intros HA Hi p. assert (Hin : In p (FO c)) by (apply finish_order_In; simpl; auto).
  rewrite <- (A_order _ _ HA) in Hin. apply in_app_or in Hin as [Hin|Hin].
  - left. split; [exact Hin|]. destruct (A_done _ _ HA _ _ Hin) as (o & Ho & Hd).
    rewrite (outcome_of_lt _ _ Hi) in Ho. congruence.
  - right. split; [exact Hin | exact (A_sleep _ _ HA _ _ Hin)].
Qed.

Lemma fins_FO c s t i : InvA c s -> In (t, i) (fins (ev s)) -> (i < nacts c)%nat /\ t = ftime (c_t0 c) (c_acts c) i.
Proof. intros HA H. apply FO_In. rewrite <- (A_order _ _ HA). apply in_or_app. left. exact H. Qed.

Lemma progress c s : valid c -> Inv c s -> cs s <> CDone -> ag s <> [].
Proof.
  intros [_ Hk] (HA & HF & HC) Hnd Hg.
  pose proof (C_ncons _ _ HC) as Hnc. rewrite Hg in Hnc. simpl in Hnc.
  destruct (cs s) eqn:Hcs; try discriminate; try congruence.
  - (* CWait *)
    assert (Hm : c_mode c = MFirst) by (rewrite (cs_mode _ _ HC), Hcs; reflexivity).
    pose proof (C_mode _ _ HC) as HM. rewrite Hm, Hcs in HM. destruct HM as (HM1 & [Hb Hlt] & _).
    assert (Hf : fails s = []).
    { destruct (fails s) eqn:E; auto. assert (X : fails s <> []) by (rewrite E; discriminate).
      apply (F_cancel _ _ HF) in X. rewrite Hg in X. destruct X. }
    destruct (all_done_succ _ _ HA HF Hg Hf) as [H1 H2].
    apply (f_equal (@length Z)) in HM1. rewrite H1, Hb, app_nil_r, !map_length, H2 in HM1.
    rewrite <- (C_got _ _ HC) in HM1. lia.
  - (* COn j *)
    assert (Hm : c_mode c = MCollect) by (rewrite (cs_mode _ _ HC), Hcs; reflexivity).
    pose proof (C_mode _ _ HC) as HM. rewrite Hm, Hcs in HM. destruct HM as (_ & _ & Hj).
    destruct (fate _ _ _ HA (sleep_lt _ _ _ HA Hj)) as [[_ X]|[X _]]; [congruence | rewrite Hg in X; exact X].
Qed.

Lemma run_done c : forall fuel s, cs s = CDone -> run c fuel s = s.
Proof. intros [|f] s H; simpl; auto. unfold step. rewrite H. reflexivity. Qed.

Lemma run_final c : forall fuel s,
  valid c -> Inv c s -> cs s <> CDone -> (measure s <= fuel)%nat ->
  exists s1 s2, Inv c s1 /\ cs s1 <> CDone /\ final_step s1 s2 /\ run c fuel s = s2.
Proof.
  induction fuel as [|f IH]; intros s Hv HI Hnd Hm; pose proof (progress _ _ Hv HI Hnd) as Hp;
    (destruct (step c s) as [s'|] eqn:E; [|apply step_None in E as [E|E]; contradiction]);
    pose proof (step_measure _ _ _ E) as Hlt; [lia|].
  simpl. rewrite E. destruct (step_cases _ _ _ HI E) as [[H1 H2]|[H1 H2]].
  - apply IH; auto. lia.
  - exists s, s'. split; [exact HI|]. split; [exact Hnd|]. split; [exact H2|]. apply run_done. exact H1.
Qed.

(** the shape of every execution: a body of [EFin]/[EYield] events, then the aborts of everything that
    is still running, then the event that ends the call *)
Theorem exec_shape c :
  valid c ->
  exists s t a rest fe,
    Inv c s /\ cs s <> CDone /\ ag s = (t, a) :: rest /\ final_kind s t a fe /\
    exec c = ev s ++ aborts t (ast s) ++ [fe].
Proof.
  intros Hv. pose proof (init_inv c Hv) as HI.
  assert (Hnd : cs (init c) <> CDone) by (simpl; destruct (c_mode c), (c_k c); discriminate).
  destruct (run_final c (measure (init c)) (init c) Hv HI Hnd (le_n _)) as (s1 & s2 & H1 & H2 & H3 & H4).
  destruct H3 as (t & a & rest & fe & Hg & Hs2 & Hk).
  exists s1, t, a, rest, fe. split; [exact H1|]. split; [exact H2|]. split; [exact Hg|]. split; [exact Hk|].
  unfold exec, trace_of. cbv zeta. rewrite H4, Hs2, finish_cs, finish_ev. simpl. rewrite app_nil_r. reflexivity.
Qed.

Definition is_final (fe : event) : Prop :=
  match fe with EReturn _ | EResult _ _ | ERaise _ _ | EEscape _ => True | _ => False end.

Lemma final_kind_final s t a fe : final_kind s t a fe -> is_final fe /\ ev_time fe = t /\ is_actb a = false.
Proof. intros []; simpl; auto. destruct (fails s); simpl; auto. Qed.

Lemma final_first c s t a fe :
  InvC c s -> c_mode c = MFirst -> final_kind s t a fe -> (fe = EReturn t /\ cs s = CExit) \/ a = ACancel.
Proof.
  intros HC Hm [Hcs|Hcs _|Hcs|Hcs]; auto. rewrite (cs_mode _ _ HC), Hcs in Hm. discriminate.
Qed.

Lemma final_collect c s t a fe :
  InvC c s -> c_mode c = MCollect -> final_kind s t a fe ->
  (a = ACons /\ first_sleep_from 0 (ast s) = None /\
   fe = match fails s with [] => EResult t (results (ast s)) | _ => ERaise t (fails s) end) \/
  (a = ACancel /\ fe = ERaise t (fails s)).
Proof.
  intros HC Hm [Hcs|Hcs Hn|Hcs|Hcs]; auto; rewrite (cs_mode _ _ HC), Hcs in Hm; discriminate.
Qed.

Lemma cancel_head c s t rest : InvF c s -> ag s = (t, ACancel) :: rest -> t = now s /\ fails s <> [].
Proof. intros HF Hg. apply (F_cancel2 _ _ HF). rewrite Hg. left. reflexivity. Qed.

(** when the caller or the cancel signal has its turn, the activities still pending are due later, except in
    the caller's very first turn *)
Lemma pend_later c s t a rest :
  InvA c s -> ag s = (t, a) :: rest -> is_actb a = false ->
  (forall p, In p (pend rest) -> t < fst p) \/ first_turn c s.
Proof.
  intros HA Hg Ha. destruct (A_O _ _ HA) as [HO|HO]; [left | right; exact HO].
  rewrite Hg in HO. simpl in HO. destruct HO as [HO _]. specialize (HO Ha). rewrite Forall_forall in HO.
  intros [tp ip] Hp. apply pend_In in Hp. exact (HO _ Hp eq_refl).
Qed.

Lemma exec_events c e :
  valid c -> In e (exec c) -> body_event e \/ (exists S i, e = EAbort S i) \/ is_final e.
Proof.
  intros Hv Hin. destruct (exec_shape c Hv) as (s & t & a & rest & fe & (HA & _) & _ & _ & Hk & He).
  rewrite He in Hin. apply in_app_or in Hin as [Hin|Hin].
  - left. exact (proj1 (Forall_forall _ _) (A_body _ _ HA) _ Hin).
  - right. apply in_app_or in Hin as [Hin|[<-|[]]].
    + left. apply aborts_In in Hin as (j & -> & _). eauto.
    + right. apply (final_kind_final _ _ _ _ Hk).
Qed.

Theorem exec_stop_activities c :
  valid c ->
  exists S body ab fe,
    exec c = body ++ ab ++ [fe] /\ is_final fe /\ ev_time fe = S /\
    Forall body_event body /\ Forall (fun e => ev_time e <= S) body /\
    (* what finished, finished at its own finish time, not later than the stop, and is not aborted *)
    (forall t i, In (EFin t i) body ->
       (i < nacts c)%nat /\ t = ftime (c_t0 c) (c_acts c) i /\ t <= S /\ ~ In (EAbort S i) ab) /\
    (* only unfinished activities are aborted, all at the stop time *)
    (forall e, In e ab -> exists i, e = EAbort S i /\ (i < nacts c)%nat /\
                                    S <= ftime (c_t0 c) (c_acts c) i /\ forall t, ~ In (EFin t i) body) /\
    (* everything that would finish later is aborted at the stop time *)
    (forall i, (i < nacts c)%nat -> S < ftime (c_t0 c) (c_acts c) i -> In (EAbort S i) ab) /\
    (* every activity either finishes or is aborted *)
    (forall i, (i < nacts c)%nat -> (exists t, In (EFin t i) body) \/ In (EAbort S i) ab) /\
    (* ties with the stop time: activities whose finish time IS the stop time still finish
       (except for first(count=0), which stops before anything can run) *)
    ((c_mode c = MCollect \/ (0 < c_k c)%nat) ->
     (forall i, (i < nacts c)%nat -> ftime (c_t0 c) (c_acts c) i <= S -> In (EFin (ftime (c_t0 c) (c_acts c) i) i) body) /\
     (forall i, In (EAbort S i) ab -> S < ftime (c_t0 c) (c_acts c) i)).
Proof.
  intros Hv. destruct (exec_shape c Hv) as (s & t & a & rest & fe & HI & Hnd & Hg & Hk & He).
  pose proof HI as (HA & HF & HC). destruct (final_kind_final _ _ _ _ Hk) as (Hfin & Hft & Ha).
  destruct (head_agenda _ _ _ _ _ HA Hg) as (Hnow & _ & Hrl).
  assert (Hpend : pend (ag s) = pend rest) by (rewrite Hg; apply pend_cons_other, Ha).
  set (ft := ftime (c_t0 c) (c_acts c)).
  (* in the last state an activity is done, and then its [EFin] is in the trace, or it sleeps, and then its
     wake-up is pending and it is aborted *)
  assert (Hdone : forall t' i, In (EFin t' i) (ev s) ->
            (i < nacts c)%nat /\ t' = ft i /\ t' <= t /\ nth i (ast s) SAborted <> SSleep).
  { intros t' i Hin. apply fins_In in Hin. destruct (fins_FO _ _ _ _ HA Hin) as [Hi Ht].
    pose proof (fins_past _ _ _ HA Hin) as Hp. destruct (A_done _ _ HA _ _ Hin) as (o & _ & X).
    simpl in Hp. repeat split; [exact Hi | exact Ht | lia | congruence]. }
  assert (Hab : forall i, In (EAbort t i) (aborts t (ast s)) <-> nth i (ast s) SAborted = SSleep).
  { intros i. rewrite aborts_In. split; [intros (j & [= <-] & Hj); exact Hj | eauto]. }
  assert (Hsl : forall i, nth i (ast s) SAborted = SSleep -> In (ft i, i) (pend rest)).
  { intros i Hi. destruct (fate _ _ i HA (sleep_lt _ _ _ HA Hi)) as [[_ X]|[X _]]; [congruence|].
    rewrite <- Hpend. exact X. }
  assert (Hfate : forall i, (i < nacts c)%nat -> In (EFin (ft i) i) (ev s) \/ nth i (ast s) SAborted = SSleep).
  { intros i Hi. destruct (fate _ _ i HA Hi) as [[X _]|[_ X]]; [left; apply fins_In; exact X | right; exact X]. }
  exists t, (ev s), (aborts t (ast s)), fe.
  split; [exact He|]. split; [exact Hfin|]. split; [exact Hft|]. split; [apply (A_body _ _ HA)|].
  split; [eapply Forall_impl; [|apply (A_past _ _ HA)]; simpl; intros; lia|].
  split; [|split; [|split; [|split]]].
  - intros t' i Hin. destruct (Hdone _ _ Hin) as (H1 & H2 & H3 & H4). rewrite Hab. auto.
  - intros e Hin. apply aborts_In in Hin as (i & -> & Hi). exists i.
    split; [reflexivity|]. split; [exact (sleep_lt _ _ _ HA Hi)|]. split.
    + apply Hsl, pend_In in Hi. rewrite Forall_forall in Hrl. exact (Hrl _ Hi).
    + intros t' X. apply Hdone in X. tauto.
  - intros i Hi Hlt. apply Hab. destruct (Hfate _ Hi) as [X|X]; [|exact X]. apply Hdone in X. lia.
  - intros i Hi. destruct (Hfate _ Hi) as [X|X]; [left; eauto | right; apply Hab, X].
  - intros Hmk.
    assert (Hstrict : forall i, nth i (ast s) SAborted = SSleep -> t < ft i).
    { intros i Hi. destruct (pend_later _ _ _ _ _ HA Hg Ha) as [HO|(Hev & r & Hr & _)]; [exact (HO _ (Hsl _ Hi))|].
      (* still in the caller's very first turn: nothing has happened yet *)
      exfalso. rewrite Hg in Hr. destruct Hk as [Hcs|Hcs Hns|Hcs|Hcs]; try discriminate.
      - assert (Hm : c_mode c = MFirst) by (rewrite (cs_mode _ _ HC), Hcs; reflexivity).
        pose proof (C_mode _ _ HC) as HM. rewrite Hm, Hcs in HM. destruct HM as (_ & HM & _).
        pose proof (C_got _ _ HC) as Hgot. rewrite Hev in Hgot. simpl in Hgot.
        destruct Hmk as [X|X]; [congruence | lia].
      - exact (first_sleep_from_None _ _ Hns _ Hi). }
    split.
    + intros i Hi Hle. destruct (Hfate _ Hi) as [X|X]; [exact X|]. apply Hstrict in X. lia.
    + intros i Hin. apply Hstrict, Hab, Hin.
Qed.

(** the failures of the activities that finish at [S], in argument order *)
Fixpoint failures_at (t0 S : Z) (acts : list activity) : list Z :=
  match acts with
  | [] => []
  | (d, Fail e) :: r => if t0 + d =? S then e :: failures_at t0 S r else failures_at t0 S r
  | _ :: r => failures_at t0 S r
  end.

Local Notation time_is S := (fun p : Z * nat => fst p =? S).

Lemma ins_last t i l : (forall p, In p l -> fst p <= t) -> ins t i l = l ++ [(t, i)].
Proof.
  induction l as [|[t' i'] r IH]; simpl; intros H; [reflexivity|].
  destruct (Z.leb_spec t' t) as [_|L]; [rewrite IH; auto|].
  specialize (H _ (or_introl eq_refl)). simpl in H. lia.
Qed.

(** the entries of a given time are in the finish order in argument order (the sort is stable): so are their
    failures *)
Lemma fail_codes_order c S t0 : forall acts i l,
  tsorted l -> (forall j, nth_error acts j = nth_error (c_acts c) (i + j)) ->
  fail_codes c (filter (time_is S) (order_from i t0 acts l)) =
  fail_codes c (filter (time_is S) l) ++ failures_at t0 S acts.
Proof.
  induction acts as [|[d o] r IH]; intros i l Hl H; simpl; [symmetry; apply app_nil_r|].
  assert (Ho : outcome_of c i = Some o).
  { pose proof (H 0%nat) as H0. rewrite Nat.add_0_r in H0. unfold outcome_of. rewrite <- H0. reflexivity. }
  rewrite IH; [|apply ins_tsorted, Hl | intros j; rewrite Nat.add_succ_comm; exact (H (Datatypes.S j))].
  rewrite ins_tins, (filter_tins (fun t => t =? S)) by exact Hl.
  destruct (Z.eqb_spec (t0 + d) S) as [E|E].
  - rewrite <- ins_tins, ins_last, fail_codes_app, <- app_assoc; [simpl; rewrite Ho; destruct o; reflexivity|].
    intros p Hp. apply filter_In in Hp as [_ Hp]. apply Z.eqb_eq in Hp. lia.
  - destruct o; reflexivity.
Qed.

Lemma fail_codes_at c S : fail_codes c (filter (time_is S) (FO c)) = failures_at (c_t0 c) S (c_acts c).
Proof. apply (fail_codes_order c S (c_t0 c) (c_acts c) 0 []); [constructor | reflexivity]. Qed.

(** if the call raises, it raises at the earliest failure time [S], exactly the failures of the activities that
    finish at [S], in argument order *)
Theorem exec_raise c pre S es :
  valid c -> exec c = pre ++ [ERaise S es] ->
  es = failures_at (c_t0 c) S (c_acts c) /\ es <> [] /\
  (forall i e, (i < nacts c)%nat -> out_of (c_acts c) i = Fail e -> S <= ftime (c_t0 c) (c_acts c) i).
Proof.
  intros Hv Hex. destruct (exec_shape c Hv) as (s & t & a & rest & fe & HI & Hnd & Hg & Hk & He).
  pose proof HI as (HA & HF & HC). destruct (final_kind_final _ _ _ _ Hk) as (_ & _ & Ha).
  assert (Hpend : pend (ag s) = pend rest) by (rewrite Hg; apply pend_cons_other, Ha).
  rewrite He, app_assoc in Hex. apply app_inj_tail in Hex as [_ Hfe].
  assert (Hes : t = S /\ es = fails s /\ fails s <> [] /\ t = now s).
  { destruct Hk as [Hcs|Hcs Hns|Hcs|Hcs]; try discriminate.
    - destruct (fails s) eqn:Ef; [discriminate|]. injection Hfe as -> <-. repeat split; try discriminate.
      assert (Hm : c_mode c = MCollect) by (rewrite (cs_mode _ _ HC), Hcs; reflexivity).
      destruct (C_cp _ _ HC (or_introl Hm)) as [H1 _].
      apply H1. rewrite Hg. left. reflexivity.
    - injection Hfe as -> <-. destruct (cancel_head _ _ _ _ HF Hg). auto. }
  destruct Hes as (-> & -> & Hne & HS).
  assert (HO : forall p, In p (pend rest) -> S < fst p).
  { destruct (pend_later _ _ _ _ _ HA Hg Ha) as [HO|(Hev & _)]; [exact HO|].
    destruct Hne. rewrite (F_fails _ _ HF), Hev. reflexivity. }
  split; [|split; [exact Hne|]].
  - rewrite (F_fails _ _ HF), <- (fail_codes_at c S).
    rewrite <- (A_order _ _ HA), Hpend, filter_app, (filter_none _ (pend rest)), app_nil_r.
    + symmetry. apply fail_codes_filter.
      intros p Hp Hfl. apply Z.eqb_eq. rewrite (F_now _ _ HF p Hp Hfl). auto.
    + intros p Hp. apply Z.eqb_neq. specialize (HO p Hp). lia.
  - intros i e Hi Ho. destruct (fate _ _ i HA Hi) as [[Hin _]|[Hin _]].
    + assert (X : fst (ftime (c_t0 c) (c_acts c) i, i) = now s).
      { apply (F_now _ _ HF _ Hin). simpl. rewrite (outcome_of_lt _ _ Hi), Ho. reflexivity. }
      simpl in X. lia.
    + rewrite Hpend in Hin. specialize (HO _ Hin). simpl in HO. lia.
Qed.

Lemma yields_final s t a fe : final_kind s t a fe -> yields [fe] = [].
Proof. intros []; simpl; auto. destruct (fails s); auto. Qed.

Lemma prefix_firstn {A} (a b l : list A) : l = a ++ b -> firstn (length a) l = a.
Proof. intros ->. rewrite firstn_app, Nat.sub_diag, firstn_all. simpl. apply app_nil_r. Qed.

Theorem exec_yields c :
  valid c -> c_mode c = MFirst ->
  let ys := yields (exec c) in
  let succs := succ_of c (FO c) in
  (length ys <= c_k c)%nat /\
  map snd ys = firstn (length ys) (map (val_of c) succs) /\
  (forall j y p, nth_error ys j = Some y -> nth_error succs j = Some p -> fst p <= fst y) /\
  (prompt c -> map fst ys = firstn (length ys) (map fst succs)) /\
  (forall pre S, exec c = pre ++ [EReturn S] -> length ys = c_k c).
Proof.
  intros Hv Hm. destruct (exec_shape c Hv) as (s & t & a & rest & fe & HI & Hnd & Hg & Hk & He).
  pose proof HI as (HA & HF & HC).
  assert (Hys : yields (exec c) = yields (ev s)).
  { rewrite He, !yields_app, yields_aborts, (yields_final _ _ _ _ Hk), !app_nil_r. reflexivity. }
  cbv zeta. rewrite Hys.
  pose proof (C_mode _ _ HC) as HM. rewrite Hm in HM. destruct HM as (HM1 & HM2 & HM3).
  assert (Hsu : succ_of c (FO c) = succ_of c (fins (ev s)) ++ succ_of c (pend (ag s))).
  { rewrite <- (A_order _ _ HA). apply succ_of_app. }
  split; [rewrite <- (C_got _ _ HC); apply (C_k _ _ HC)|]. split; [|split; [|split]].
  - rewrite <- (map_length snd (yields (ev s))). symmetry. apply prefix_firstn with (b := buf s ++ map (val_of c) (succ_of c (pend (ag s)))).
    rewrite Hsu, map_app, HM1, <- app_assoc. reflexivity.
  - intros j y p Hy Hp. rewrite Hsu in Hp. exact (ytime_ext _ _ _ (ys_le_succ _ _ HC) (C_ytime _ _ HC) j y p Hy Hp).
  - intros Hp. destruct (HM3 Hp) as [_ Ht].
    rewrite <- (map_length fst (yields (ev s))). symmetry.
    apply prefix_firstn with (b := repeat (now s) (length (buf s)) ++ map fst (succ_of c (pend (ag s)))).
    rewrite Hsu, map_app, Ht, <- app_assoc. reflexivity.
  - intros pre S Hex. rewrite He, app_assoc in Hex. apply app_inj_tail in Hex as [_ Hfe].
    destruct (final_first _ _ _ _ _ HC Hm Hk) as [[_ Hcs]| ->].
    + rewrite Hcs in HM2. rewrite <- (C_got _ _ HC). exact HM2.
    + inversion Hk; subst; discriminate.
Qed.

Definition all_succeed (acts : list activity) : Prop :=
  forall i, (i < length acts)%nat -> exists v, out_of acts i = Val v.

Lemma allval_fails_nil c s : InvA c s -> InvF c s -> all_succeed (c_acts c) -> fails s = [].
Proof.
  intros HA HF Hall. rewrite (F_fails _ _ HF). apply fail_codes_nil. intros [tp ip] Hp.
  destruct (fins_FO _ _ _ _ HA Hp) as [Hi _]. simpl. rewrite (outcome_of_lt _ _ Hi).
  destruct (Hall _ Hi) as [v ->]. reflexivity.
Qed.

Theorem exec_first_returns c :
  valid c -> c_mode c = MFirst -> all_succeed (c_acts c) -> exists pre S, exec c = pre ++ [EReturn S].
Proof.
  intros Hv Hm Hall. destruct (exec_shape c Hv) as (s & t & a & rest & fe & HI & Hnd & Hg & Hk & He).
  pose proof HI as (HA & HF & HC).
  exists (ev s ++ aborts t (ast s)), t. rewrite He, app_assoc. f_equal. f_equal.
  destruct (final_first _ _ _ _ _ HC Hm Hk) as [[-> _]| ->]; [reflexivity|].
  destruct (cancel_head _ _ _ _ HF Hg) as [_ X]. destruct X. exact (allval_fails_nil _ _ HA HF Hall).
Qed.

(** the cancel signal only escapes when the consumer suspends in its own loop body (known finding D11) *)
Theorem exec_no_escape c :
  valid c -> (c_mode c = MCollect \/ prompt c) -> forall t, ~ In (EEscape t) (exec c).
Proof.
  intros Hv Hcp t0 Hin. destruct (exec_shape c Hv) as (s & t & a & rest & fe & HI & Hnd & Hg & Hk & He).
  pose proof HI as (HA & HF & HC). rewrite He in Hin. apply in_app_or in Hin as [Hin|Hin].
  - exact (proj1 (Forall_forall _ _) (A_body _ _ HA) _ Hin).
  - apply in_app_or in Hin as [Hin|[Hin|[]]]; [apply aborts_In in Hin as (j & [=] & _)|].
    destruct Hk as [Hcs|Hcs Hns|Hcs|Hcs]; try discriminate; [destruct (fails s); discriminate|].
    assert (Hm : c_mode c = MFirst) by (rewrite (cs_mode _ _ HC), Hcs; reflexivity).
    pose proof (C_mode _ _ HC) as HM. rewrite Hm in HM. destruct HM as (_ & _ & HM3).
    destruct Hcp as [X|X]; [congruence|]. destruct (HM3 X) as [Y _]. contradiction.
Qed.

Definition value_of (o : outcome) : Z := match o with Val v => v | Fail _ => 0 end.
Definition max_finish (t0 : Z) (acts : list activity) : Z :=
  fold_right Z.max t0 (map (fun a : activity => t0 + fst a) acts).
Definition fin_event (p : Z * nat) : event := EFin (fst p) (snd p).

Lemma zmax_le l t0 S : Forall (fun x => x <= S) l -> t0 <= S -> fold_right Z.max t0 l <= S.
Proof. induction 1; simpl; intros; [lia|]. specialize (IHForall H1). lia. Qed.

Lemma zmax_spec l t0 S :
  Forall (fun x => x <= S) l -> t0 <= S -> (S = t0 \/ In S l) -> fold_right Z.max t0 l = S.
Proof.
  induction 1 as [|x l Hx Hl IH]; simpl; intros Ht HS.
  - destruct HS as [->|[]]. reflexivity.
  - pose proof (zmax_le _ _ _ Hl Ht). destruct HS as [->|[->|HS]].
    + rewrite IH; auto. lia.
    + lia.
    + rewrite IH; auto. lia.
Qed.

Lemma times_In t0 acts x :
  In x (map (fun a : activity => t0 + fst a) acts) <-> exists i, (i < length acts)%nat /\ x = ftime t0 acts i.
Proof.
  split.
  - intros H. apply in_map_iff in H. destruct H as (a & <- & Ha). apply (In_nth _ _ (0, Val 0)) in Ha.
    destruct Ha as (i & Hi & <-). exists i. split; auto.
  - intros (i & Hi & ->). apply in_map_iff. exists (nth i acts (0, Val 0)). split; [reflexivity|]. apply nth_In. exact Hi.
Qed.

Lemma nonneg_delay acts i : nonneg acts -> (i < length acts)%nat -> 0 <= delay_of acts i.
Proof.
  intros H Hi. unfold nonneg in H. rewrite Forall_forall in H. apply H. apply nth_In. exact Hi.
Qed.

Lemma body_fins l : Forall body_event l -> yields l = [] -> l = map fin_event (fins l).
Proof.
  induction 1 as [|e l He Hl IH]; simpl; auto. destruct e; simpl in *; try contradiction; intros Hy.
  - f_equal. apply IH. exact Hy.
  - discriminate.
Qed.

Lemma results_all acts : forall l,
  length l = length acts ->
  (forall i, (i < length acts)%nat -> nth i l SAborted = SDone (out_of acts i)) ->
  all_succeed acts -> results l = map (fun a : activity => value_of (snd a)) acts.
Proof.
  induction acts as [|a acts IH]; intros l Hl Hn Hall.
  - destruct l; [reflexivity | discriminate].
  - destruct l as [|x l]; [discriminate|]. simpl in Hl.
    pose proof (Hn 0%nat ltac:(simpl; lia)) as H0. simpl in H0. unfold out_of in H0. simpl in H0. subst x.
    destruct (Hall 0%nat ltac:(simpl; lia)) as [v Hv]. unfold out_of in Hv. simpl in Hv. rewrite Hv. simpl.
    f_equal; [rewrite Hv; reflexivity|]. apply IH.
    + lia.
    + intros i Hi. specialize (Hn (S i) ltac:(simpl; lia)). exact Hn.
    + intros i Hi. apply (Hall (S i)). simpl. lia.
Qed.

(** (d) all activities succeed: every activity runs to its end, then the call returns the results in argument
    order at the time the slowest one finishes *)
Theorem exec_collect_ok c :
  valid c -> c_mode c = MCollect -> all_succeed (c_acts c) ->
  exec c = map fin_event (FO c) ++
           [EResult (max_finish (c_t0 c) (c_acts c)) (map (fun a : activity => value_of (snd a)) (c_acts c))].
Proof.
  intros Hv Hm Hall. destruct (exec_shape c Hv) as (s & t & a & rest & fe & HI & Hnd & Hg & Hk & He).
  pose proof HI as (HA & HF & HC). pose proof (allval_fails_nil _ _ HA HF Hall) as Hf.
  destruct (final_collect _ _ _ _ _ HC Hm Hk) as [(-> & Hns & ->)|[-> _]];
    [|destruct (cancel_head _ _ _ _ HF Hg) as [_ X]; contradiction].
  pose proof (first_sleep_from_None _ _ Hns) as Hnone.
  assert (Hdone : forall i, (i < nacts c)%nat ->
            In (ftime (c_t0 c) (c_acts c) i, i) (fins (ev s)) /\ nth i (ast s) SAborted = SDone (out_of (c_acts c) i)).
  { intros i Hi. destruct (fate _ _ i HA Hi) as [X|[_ X]]; [exact X | destruct (Hnone _ X)]. }
  assert (Ho : fins (ev s) = FO c).
  { rewrite <- (A_order _ _ HA). destruct (pend (ag s)) as [|[tp ip] r] eqn:E; [symmetry; apply app_nil_r|].
    destruct (Hnone ip). apply (A_sleep _ _ HA tp). rewrite E. left. reflexivity. }
  rewrite He, Hf, (aborts_nil _ _ Hnone). simpl.
  rewrite (body_fins _ (A_body _ _ HA) (collect_no_yields _ _ HC Hm)), Ho. f_equal. f_equal.
  destruct (C_cp _ _ HC (or_introl Hm)) as [H1 H2].
  pose proof (H1 t ltac:(rewrite Hg; left; reflexivity)) as Ht. destruct Hv as [Hnn _].
  assert (Hall_le : Forall (fun x => x <= t) (map (fun a : activity => c_t0 c + fst a) (c_acts c))).
  { rewrite Forall_forall. intros x Hx. apply times_In in Hx. destruct Hx as (i & Hi & ->).
    pose proof (fins_past _ _ _ HA (proj1 (Hdone i Hi))). simpl in *. lia. }
  assert (Hdisj : t = c_t0 c \/ In t (map (fun a : activity => c_t0 c + fst a) (c_acts c))).
  { destruct H2 as [H2|([tp ip] & Hp1 & Hp2)]; [left; lia|]. right. apply times_In.
    apply (fins_FO _ _ _ _ HA) in Hp1. exists ip. simpl in *. split; [tauto | lia]. }
  assert (Hge : c_t0 c <= t).
  { destruct Hdisj as [->|Hd]; [lia|]. apply times_In in Hd. destruct Hd as (i & Hi & ->).
    pose proof (nonneg_delay _ _ Hnn Hi). unfold ftime. lia. }
  f_equal.
  - symmetry. apply zmax_spec; auto.
  - apply results_all; auto; [apply (A_len _ _ HA) | intros i Hi; apply (Hdone i Hi)].
Qed.

(** (e) some activity fails: the call raises *)
Theorem exec_collect_raises c i e :
  valid c -> c_mode c = MCollect -> (i < nacts c)%nat -> out_of (c_acts c) i = Fail e ->
  exists pre S es, exec c = pre ++ [ERaise S es].
Proof.
  intros Hv Hm Hi Hfl. destruct (exec_shape c Hv) as (s & t & a & rest & fe & HI & Hnd & Hg & Hk & He).
  pose proof HI as (HA & HF & HC).
  exists (ev s ++ aborts t (ast s)), t, (fails s). rewrite He, app_assoc. f_equal. f_equal.
  destruct (final_collect _ _ _ _ _ HC Hm Hk) as [(-> & Hns & ->)|[-> ->]]; [|reflexivity].
  destruct (fate _ _ i HA Hi) as [[Y _]|[_ Y]]; [|destruct (first_sleep_from_None _ _ Hns _ Y)].
  assert (Z0 : fails s <> []).
  { apply (failing_fails _ _ _ HF Y). simpl. rewrite (outcome_of_lt _ _ Hi), Hfl. reflexivity. }
  destruct (fails s); [congruence | reflexivity].
Qed.

Definition count_of (acts : list activity) (count : option nat) : nat :=
  match count with Some k => k | None => length acts end.
Definition succeeded (acts : list activity) (p : Z * nat) : bool :=
  match out_of acts (snd p) with Val _ => true | Fail _ => false end.
Definition value_at (acts : list activity) (p : Z * nat) : Z := value_of (out_of acts (snd p)).
(** the activities that succeed, in the order in which they finish *)
Definition successes (t0 : Z) (acts : list activity) : list (Z * nat) := filter (succeeded acts) (finish_order t0 acts).
Definition prompt_consumer (thinks : list Z) : Prop := forall j, nth j thinks 0 <= 0.

Lemma first_cfg_valid t0 acts count thinks :
  nonneg acts -> (count_of acts count <= length acts)%nat -> valid (first_cfg t0 acts count thinks).
Proof. intros H1 H2. split; [exact H1 | exact H2]. Qed.

Lemma collect_cfg_valid t0 acts : nonneg acts -> valid (collect_cfg t0 acts).
Proof. intros H. split; [exact H | apply Nat.le_0_l]. Qed.

Lemma first_run_exec t0 acts count thinks :
  (count_of acts count <= length acts)%nat ->
  first_run t0 acts count thinks = exec (first_cfg t0 acts count thinks).
Proof. intros H. unfold first_run. simpl. apply Nat.ltb_ge in H. unfold count_of in H. rewrite H. reflexivity. Qed.

Lemma first_run_cases t0 acts count thinks :
  nonneg acts ->
  ((length acts < count_of acts count)%nat /\ first_run t0 acts count thinks = [EValueError t0]) \/
  (valid (first_cfg t0 acts count thinks) /\
   first_run t0 acts count thinks = exec (first_cfg t0 acts count thinks)).
Proof.
  intros Hnn. destruct (Nat.lt_ge_cases (length acts) (count_of acts count)) as [H|H].
  - left. split; [exact H|]. unfold first_run. simpl. apply Nat.ltb_lt in H. unfold count_of in H. rewrite H. reflexivity.
  - right. split; [apply first_cfg_valid; assumption | apply first_run_exec, H].
Qed.

Lemma outcome_at c p : In p (FO c) -> outcome_of c (snd p) = Some (out_of (c_acts c) (snd p)).
Proof. intros H. apply outcome_of_lt. apply finish_order_In in H. apply H. Qed.

Lemma succ_of_successes c :
  succ_of c (FO c) = successes (c_t0 c) (c_acts c) /\
  map (val_of c) (succ_of c (FO c)) = map (value_at (c_acts c)) (successes (c_t0 c) (c_acts c)).
Proof.
  assert (E : succ_of c (FO c) = successes (c_t0 c) (c_acts c)).
  { apply filter_ext_in. intros p Hp. unfold succeeded. rewrite (outcome_at _ _ Hp).
    destruct (out_of (c_acts c) (snd p)); reflexivity. }
  split; [exact E|]. rewrite E. apply map_ext_in. intros p Hp. apply filter_In in Hp as [Hp _].
  unfold val_of, value_at. rewrite (outcome_at _ _ Hp). destruct (out_of (c_acts c) (snd p)); reflexivity.
Qed.

Lemma all_succeed_successes t0 acts : all_succeed acts -> successes t0 acts = finish_order t0 acts.
Proof.
  intros H. apply filter_all. intros [t i] Hp. apply finish_order_In in Hp as [Hi _]. unfold succeeded.
  destruct (H _ Hi) as [v ->]. reflexivity.
Qed.

(** (b) ValueError exactly when count exceeds the number of activities, and then nothing else happens *)
Theorem first_valueerror_iff t0 acts count thinks :
  nonneg acts ->
  ((length acts < count_of acts count)%nat -> first_run t0 acts count thinks = [EValueError t0]) /\
  ((exists t, In (EValueError t) (first_run t0 acts count thinks)) -> (length acts < count_of acts count)%nat).
Proof.
  intros Hnn. destruct (first_run_cases t0 acts count thinks Hnn) as [[H ->]|[Hv ->]]; split; auto.
  - intros H. destruct Hv as [_ Hk]. unfold nacts in Hk. simpl in Hk. unfold count_of in H. lia.
  - intros [t Hin]. destruct (exec_events _ _ Hv Hin) as [[]|[(S & i & [=])|[]]].
Qed.

(** (a) what first() yields: the successful activities in the order in which they finish (ties: argument order),
    never more than [count], each not before it finished -- and exactly when it finished if the consumer is
    prompt.  This holds with failing activities as well. *)
Theorem first_yields_in_finish_order t0 acts count thinks :
  nonneg acts -> (count_of acts count <= length acts)%nat ->
  let ys := yields (first_run t0 acts count thinks) in
  (length ys <= count_of acts count)%nat /\
  map snd ys = map (value_at acts) (firstn (length ys) (successes t0 acts)) /\
  (forall j y p, nth_error ys j = Some y -> nth_error (successes t0 acts) j = Some p -> fst p <= fst y) /\
  (prompt_consumer thinks -> map fst ys = map fst (firstn (length ys) (successes t0 acts))) /\
  (forall pre S, first_run t0 acts count thinks = pre ++ [EReturn S] -> length ys = count_of acts count).
Proof.
  intros Hnn Hk. cbv zeta. rewrite (first_run_exec _ _ _ _ Hk).
  set (c := first_cfg t0 acts count thinks).
  destruct (exec_yields c (first_cfg_valid t0 acts count thinks Hnn Hk) eq_refl) as (H1 & H2 & H3 & H4 & H5).
  destruct (succ_of_successes c) as [E1 E2]. change (c_t0 c) with t0 in *. change (c_acts c) with acts in *.
  rewrite E1 in H3, H4. rewrite E2 in H2.
  split; [exact H1|]. split; [rewrite H2; apply firstn_map|]. split; [exact H3|].
  split; [intros Hp; rewrite (H4 Hp); apply firstn_map | exact H5].
Qed.

(** (a) when no activity fails: exactly the first [count] activities of the finish order, and the iteration ends
    normally *)
Theorem first_yields_first_k t0 acts count thinks :
  nonneg acts -> (count_of acts count <= length acts)%nat -> all_succeed acts ->
  let tr := first_run t0 acts count thinks in
  let k := count_of acts count in
  map snd (yields tr) = map (value_at acts) (firstn k (finish_order t0 acts)) /\
  (forall j y p, nth_error (yields tr) j = Some y -> nth_error (finish_order t0 acts) j = Some p -> fst p <= fst y) /\
  (prompt_consumer thinks -> map fst (yields tr) = map fst (firstn k (finish_order t0 acts))) /\
  (exists pre S, tr = pre ++ [EReturn S]).
Proof.
  intros Hnn Hk Hall. cbv zeta.
  destruct (first_yields_in_finish_order t0 acts count thinks Hnn Hk) as (H1 & H2 & H3 & H4 & H5).
  rewrite (all_succeed_successes _ _ Hall) in *.
  assert (Hret : exists pre S, first_run t0 acts count thinks = pre ++ [EReturn S]).
  { rewrite (first_run_exec _ _ _ _ Hk). apply exec_first_returns; auto. apply first_cfg_valid; auto. }
  destruct Hret as (pre & S & Hret). rewrite (H5 _ _ Hret) in *.
  split; [exact H2|]. split; [exact H3|]. split; [exact H4|]. eauto.
Qed.

(** (c) the stop *)
Theorem first_stop t0 acts count thinks :
  nonneg acts -> (count_of acts count <= length acts)%nat ->
  exists S body ab fe,
    first_run t0 acts count thinks = body ++ ab ++ [fe] /\ is_final fe /\ ev_time fe = S /\
    Forall body_event body /\ Forall (fun e => ev_time e <= S) body /\
    (forall t i, In (EFin t i) body ->
       (i < length acts)%nat /\ t = ftime t0 acts i /\ t <= S /\ ~ In (EAbort S i) ab) /\
    (forall e, In e ab -> exists i, e = EAbort S i /\ (i < length acts)%nat /\
                                    S <= ftime t0 acts i /\ forall t, ~ In (EFin t i) body) /\
    (forall i, (i < length acts)%nat -> S < ftime t0 acts i -> In (EAbort S i) ab) /\
    (forall i, (i < length acts)%nat -> (exists t, In (EFin t i) body) \/ In (EAbort S i) ab) /\
    ((0 < count_of acts count)%nat ->
     (forall i, (i < length acts)%nat -> ftime t0 acts i <= S -> In (EFin (ftime t0 acts i) i) body) /\
     (forall i, In (EAbort S i) ab -> S < ftime t0 acts i)).
Proof.
  intros Hnn Hk. rewrite (first_run_exec _ _ _ _ Hk).
  destruct (exec_stop_activities _ (first_cfg_valid t0 acts count thinks Hnn Hk))
    as (S & body & ab & fe & H1 & H2 & H3 & H4 & H5 & H6 & H7 & H8 & H9 & H10).
  exists S, body, ab, fe. repeat (split; [assumption|]). intros Hpos. apply H10. right. exact Hpos.
Qed.

Theorem first_raise t0 acts count thinks pre S es :
  nonneg acts -> (count_of acts count <= length acts)%nat ->
  first_run t0 acts count thinks = pre ++ [ERaise S es] ->
  es = failures_at t0 S acts /\ es <> [] /\
  (forall i e, (i < length acts)%nat -> out_of acts i = Fail e -> S <= ftime t0 acts i).
Proof.
  intros Hnn Hk H. rewrite (first_run_exec _ _ _ _ Hk) in H.
  apply (exec_raise _ _ _ _ (first_cfg_valid t0 acts count thinks Hnn Hk) H).
Qed.

(** with a prompt consumer the cancel signal of first()'s scope never escapes (D11 needs a suspended consumer) *)
Theorem first_prompt_no_escape t0 acts count thinks :
  nonneg acts -> prompt_consumer thinks -> forall t, ~ In (EEscape t) (first_run t0 acts count thinks).
Proof.
  intros Hnn Hp t Hin. destruct (first_run_cases t0 acts count thinks Hnn) as [[_ E]|[Hv E]]; rewrite E in Hin.
  - destruct Hin as [[=]|[]].
  - exact (exec_no_escape _ Hv (or_intror Hp) t Hin).
Qed.

(** the model never gets stuck and never runs out of fuel *)
Theorem runs_finish t0 acts count thinks :
  nonneg acts -> ~ In EStuck (first_run t0 acts count thinks) /\ ~ In EStuck (collect_run t0 acts).
Proof.
  intros Hnn.
  assert (G : forall c, valid c -> ~ In EStuck (exec c)).
  { intros c Hv Hin. destruct (exec_events _ _ Hv Hin) as [[]|[(S & i & [=])|[]]]. }
  split.
  - destruct (first_run_cases t0 acts count thinks Hnn) as [[_ ->]|[Hv ->]]; [intros [[=]|[]] | exact (G _ Hv)].
  - apply G, collect_cfg_valid, Hnn.
Qed.

Theorem collect_returns_all t0 acts :
  nonneg acts -> all_succeed acts ->
  collect_run t0 acts =
  map fin_event (finish_order t0 acts) ++
  [EResult (max_finish t0 acts) (map (fun a : activity => value_of (snd a)) acts)].
Proof.
  intros Hnn Hall. exact (exec_collect_ok (collect_cfg t0 acts) (collect_cfg_valid t0 acts Hnn) eq_refl Hall).
Qed.

Theorem collect_raises_first_failure t0 acts i e :
  nonneg acts -> (i < length acts)%nat -> out_of acts i = Fail e ->
  exists S body ab,
    collect_run t0 acts = body ++ ab ++ [ERaise S (failures_at t0 S acts)] /\
    failures_at t0 S acts <> [] /\
    (forall j e', (j < length acts)%nat -> out_of acts j = Fail e' -> S <= ftime t0 acts j) /\
    Forall body_event body /\
    (forall t j, In (EFin t j) body -> (j < length acts)%nat /\ t = ftime t0 acts j /\ t <= S) /\
    (forall j, (j < length acts)%nat -> ftime t0 acts j <= S -> In (EFin (ftime t0 acts j) j) body) /\
    (forall x, In x ab <-> exists j, x = EAbort S j /\ (j < length acts)%nat /\ S < ftime t0 acts j).
Proof.
  intros Hnn Hi Hfl. set (c := collect_cfg t0 acts).
  pose proof (collect_cfg_valid t0 acts Hnn : valid c) as Hv.
  destruct (exec_collect_raises c i e Hv eq_refl Hi Hfl) as (pre & S & es & Hex).
  destruct (exec_raise c pre S es Hv Hex) as (Hes & Hne & Hmin).
  destruct (exec_stop_activities c Hv) as (S' & body & ab & fe & H1 & H2 & H3 & H4 & H5 & H6 & H7 & H8 & H9 & H10).
  destruct (H10 (or_introl eq_refl)) as [H11 H12].
  assert (Hfe : fe = ERaise S es /\ S' = S).
  { rewrite H1, app_assoc in Hex. apply app_inj_tail in Hex as [_ X]. split; auto. rewrite <- H3, X. reflexivity. }
  destruct Hfe as [-> ->]. subst es. exists S, body, ab. unfold collect_run. fold c. rewrite H1.
  split; [reflexivity|]. split; [exact Hne|]. split; [exact Hmin|]. split; [exact H4|].
  split; [|split].
  - intros t j Hin. destruct (H6 _ _ Hin) as (X1 & X2 & X3 & _). auto.
  - exact H11.
  - intros x. split.
    + intros Hin. destruct (H7 _ Hin) as (j & -> & Hj & _ & _). exists j. repeat split; auto.
    + intros (j & -> & Hj & Hlt). apply H8; auto.
Qed.

Example ex_finish_order :
  finish_order 0 [(3, Val 10); (1, Val 11); (3, Fail 90); (0, Val 13); (1, Val 14)]
  = [(0, 3%nat); (1, 1%nat); (1, 4%nat); (3, 0%nat); (3, 2%nat)].
Proof. vm_compute. reflexivity. Qed.

(** (a) tie around the k-th result: activity 1 finishes in the same time step as the winner, before the consumer's
    turn, so it still runs to its end; its result is dropped; activity 2 is aborted *)
Example ex_first_tie :
  first_run 0 [(2, Val 10); (2, Val 11); (3, Val 12)] (Some 1%nat) []
  = [EFin 2 0; EFin 2 1; EYield 2 10; EAbort 2 2; EReturn 2].
Proof. vm_compute. reflexivity. Qed.

(** (a) a slow consumer: results wait in the queue and are delivered in finish order when it comes back;
    instance of [first_yields_first_k] *)
Example ex_first_slow_consumer :
  let acts := [(1, Val 10); (6, Val 13); (3, Val 12); (2, Val 11)] in
  first_run 0 acts (Some 3%nat) [4; 0; 0]
  = [EFin 1 0; EYield 1 10; EFin 2 3; EFin 3 2; EYield 5 11; EYield 5 12; EAbort 5 1; EReturn 5] /\
  map snd (yields (first_run 0 acts (Some 3%nat) [4; 0; 0])) = map (value_at acts) (firstn 3 (finish_order 0 acts)).
Proof. vm_compute. split; reflexivity. Qed.

Example ex_first_prompt_times :
  let acts := [(3, Val 10); (1, Val 11); (3, Val 12); (1, Val 13)] in
  yields (first_run 5 acts None []) = [(6, 11); (6, 13); (8, 10); (8, 12)] /\
  map fst (yields (first_run 5 acts None [])) = map fst (firstn 4 (finish_order 5 acts)).
Proof. vm_compute. split; reflexivity. Qed.

Example ex_first_valueerror :
  first_run 7 [(0, Val 10); (1, Val 11)] (Some 3%nat) [] = [EValueError 7] /\
  first_run 7 [] (Some 0%nat) [] = [EReturn 7].
Proof. vm_compute. split; reflexivity. Qed.

(** (c) count = 0: the scope is left before anything can run, even an activity without delay is aborted *)
Example ex_first_count_zero :
  first_run 0 [(0, Val 10); (1, Val 11)] (Some 0%nat) [] = [EAbort 0 0; EAbort 0 1; EReturn 0].
Proof. vm_compute. reflexivity. Qed.

(** (c) the stop time of a slow consumer is when it comes back: what finishes until then finishes *)
Example ex_first_stop_late :
  first_run 0 [(1, Val 10); (3, Val 11); (4, Val 12)] (Some 1%nat) [2]
  = [EFin 1 0; EYield 1 10; EFin 3 1; EAbort 3 2; EReturn 3].
Proof. vm_compute. reflexivity. Qed.

(** failures in first(): one more result of that time step may be delivered, then all failures of the step *)
Example ex_first_failure :
  first_run 0 [(1, Val 10); (1, Val 11); (1, Fail 90); (1, Fail 91); (2, Val 12)] (Some 3%nat) []
  = [EFin 1 0; EFin 1 1; EFin 1 2; EFin 1 3; EYield 1 10; EAbort 1 4; ERaise 1 [90; 91]] /\
  failures_at 0 1 [(1, Val 10); (1, Val 11); (1, Fail 90); (1, Fail 91); (2, Val 12)] = [90; 91].
Proof. vm_compute. split; reflexivity. Qed.

(** known finding D11 on the model: the failure arrives while the consumer is in its own loop body *)
Example ex_first_escape :
  first_run 0 [(1, Val 10); (2, Fail 90); (5, Val 11)] (Some 2%nat) [3]
  = [EFin 1 0; EYield 1 10; EFin 2 1; EAbort 2 2; EEscape 2].
Proof. vm_compute. reflexivity. Qed.

(** (d) instance of [collect_returns_all] *)
Example ex_collect_ok :
  let acts := [(3, Val 10); (1, Val 11); (2, Val 12)] in
  collect_run 4 acts = [EFin 5 1; EFin 6 2; EFin 7 0; EResult 7 [10; 11; 12]] /\
  max_finish 4 acts = 7 /\ collect_run 4 [] = [EResult 4 []].
Proof. vm_compute. repeat split; reflexivity. Qed.

(** (e) instance of [collect_raises_first_failure]: activities 2, 3, 4 finish at the failure time (the
    successful one too), activity 0 is aborted *)
Example ex_collect_failure :
  let acts := [(3, Val 10); (1, Val 11); (2, Fail 90); (2, Fail 91); (2, Val 13); (0, Val 14); (4, Fail 92)] in
  collect_run 0 acts
  = [EFin 0 5; EFin 1 1; EFin 2 2; EFin 2 3; EFin 2 4; EAbort 2 0; EAbort 2 6; ERaise 2 [90; 91]] /\
  failures_at 0 2 acts = [90; 91].
Proof. vm_compute. split; reflexivity. Qed.

(** the hypotheses of the theorems are satisfiable *)
Example ex_hypotheses :
  nonneg [(3, Val 10); (0, Fail 90)] /\ all_succeed [(3, Val 10); (1, Val 11)] /\ prompt_consumer [0; 0].
Proof.
  split; [repeat constructor; simpl; lia|]. split.
  - intros [|[|i]] Hi; simpl in Hi; try lia; eexists; reflexivity.
  - intros [|[|[|j]]]; simpl; lia.
Qed.

(** * Full-strength readings that are FALSE of the faithful model (and of the library): witnesses *)

(** "first() yields min(count, number of successful activities) results": false when an activity fails -
    the failure ends the iteration although enough successful activities exist (here 3 successes, count 3, 1 yield) *)
Theorem first_yields_min_count_successes_refuted :
  exists t0 acts count thinks,
    nonneg acts /\ (count_of acts count <= length acts)%nat /\ prompt_consumer thinks /\
    (length (yields (first_run t0 acts count thinks))
     < Nat.min (count_of acts count) (length (successes t0 acts)))%nat.
Proof.
  exists 0, [(1, Val 10); (1, Val 11); (1, Fail 90); (2, Val 12)], (Some 3%nat), [].
  split; [repeat constructor; simpl; lia|]. split; [simpl; lia|]. split; [intros [|j]; simpl; lia|].
  vm_compute. lia.
Qed.

(** "an activity whose finish time is the stop time still finishes": false for count = 0 - the scope is left
    in the caller's first turn, before an activity without delay gets its second turn *)
Theorem first_tie_with_stop_finishes_refuted :
  exists t0 acts count thinks i,
    nonneg acts /\ (count_of acts count <= length acts)%nat /\ (i < length acts)%nat /\
    In (EReturn (ftime t0 acts i)) (first_run t0 acts count thinks) /\
    In (EAbort (ftime t0 acts i) i) (first_run t0 acts count thinks).
Proof.
  exists 0, [(0, Val 10); (1, Val 11)], (Some 0%nat), [], 0%nat.
  split; [repeat constructor; simpl; lia|]. split; [simpl; lia|]. split; [simpl; lia|].
  vm_compute. tauto.
Qed.
