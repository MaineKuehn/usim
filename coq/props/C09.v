(* C09 - Lock: mutual exclusion, re-entrancy, FIFO hand-off, always released.
   Statements over ALL reachable states of LockProto (any number of activities, any interleaving of
   requests, wake-up deliveries, exits, and foreign signals - cancel / until-interrupt / close - at any
   waiter, designated or not).  Proofs in theories/LockProtoProps.v. *)
From Coq Require Import List Arith Sorting.Sorted.
From Usim Require Import LockProto LockProtoProps.
Import ListNotations.

Theorem C09_mutex : forall s, reachable s -> forall a b n m,
  ph s a = Inside n -> ph s b = Inside m -> a = b /\ owner s = Some a.
Proof. exact mutex. Qed.
Print Assumptions C09_mutex.

Theorem C09_reentrant_depth : forall s, reachable s -> forall a n,
  ph s a = Inside n -> owner s = Some a /\ depth s = n /\ 1 <= n.
Proof. exact reentrant_depth. Qed.
Print Assumptions C09_reentrant_depth.

Theorem C09_reenter_immediate : forall s a n, reachable s -> ph s a = Inside n ->
  exists s', step s (Request a) = Some s' /\ ph s' a = Inside (S n) /\ owner s' = Some a /\
             depth s' = S n /\ waiting s' = waiting s.
Proof. exact reenter_immediate. Qed.
Print Assumptions C09_reenter_immediate.

Theorem C09_exit_inner_keeps : forall s a n s', reachable s -> ph s a = Inside (S (S n)) ->
  step s (Exit a) = Some s' ->
  owner s' = Some a /\ ph s' a = Inside (S n) /\ depth s' = S n /\ waiting s' = waiting s.
Proof. exact exit_inner_keeps. Qed.
Print Assumptions C09_exit_inner_keeps.

Theorem C09_handoff_on_exit : forall s a s', reachable s -> ph s a = Inside 1 ->
  step s (Exit a) = Some s' ->
  ph s' a = Idle /\ owner s' = hd_error (waiting s) /\ depth s' = 0 /\
  woken s' = match waiting s with [] => [] | b :: _ => [b] end /\ waiting s' = tl (waiting s).
Proof. exact exit_outermost_hands_off. Qed.
Print Assumptions C09_handoff_on_exit.

Theorem C09_handoff_on_signal_at_designated : forall s a s', reachable s -> ph s a = Waiting ->
  owner s = Some a -> step s (DeliverForeign a) = Some s' ->
  ph s' a = Idle /\ owner s' = hd_error (waiting s) /\ depth s' = 0 /\
  woken s' = match waiting s with [] => [] | b :: _ => [b] end /\ waiting s' = tl (waiting s).
Proof. exact foreign_designated_hands_off. Qed.
Print Assumptions C09_handoff_on_signal_at_designated.

Theorem C09_signal_at_waiter_withdraws : forall s a s', reachable s -> ph s a = Waiting ->
  owner s <> Some a -> step s (DeliverForeign a) = Some s' ->
  ph s' a = Idle /\ owner s' = owner s /\ depth s' = depth s /\ woken s' = woken s /\
  waiting s' = rem1 a (waiting s) /\ ~ In a (waiting s').
Proof. exact foreign_waiter_leaves. Qed.
Print Assumptions C09_signal_at_waiter_withdraws.

Theorem C09_free_iff_idle : forall s, reachable s -> (owner s = None <-> forall a, ph s a = Idle).
Proof. exact free_iff_idle. Qed.
Print Assumptions C09_free_iff_idle.

Theorem C09_owner_can_move : forall s o, reachable s -> owner s = Some o ->
  (exists n, ph s o = Inside (S n) /\ step s (Exit o) <> None) \/
  (ph s o = Waiting /\ In o (woken s) /\ step s (DeliverWake o) <> None).
Proof. exact owner_can_move. Qed.
Print Assumptions C09_owner_can_move.

Theorem C09_available_spec : forall s a, reachable s -> ph s a <> Waiting ->
  (available s a = true <-> (forall b, ph s b = Idle) \/ inside s a).
Proof. exact available_spec. Qed.
Print Assumptions C09_available_spec.

Theorem C09_available_predicts_request : forall s a s', reachable s ->
  step s (Request a) = Some s' ->
  (available s a = true -> inside s' a) /\ (available s a = false -> ph s' a = Waiting).
Proof. exact available_predicts_request. Qed.
Print Assumptions C09_available_predicts_request.

Theorem C09_fifo_grant : forall s, reachable s ->
  StronglySorted lt (grants s ++ map (tick s) (pendq s)) /\
  Forall (fun t => t < ntick s) (grants s ++ map (tick s) (pendq s)).
Proof. exact fifo_grant. Qed.
Print Assumptions C09_fifo_grant.

Theorem C09_ticket_fresh : forall s a s', step s (Request a) = Some s' -> ph s a = Idle ->
  tick s' a = ntick s /\ ntick s' = S (ntick s) /\ (forall b, b <> a -> tick s' b = tick s b).
Proof. exact ticket_fresh. Qed.
Print Assumptions C09_ticket_fresh.

Theorem C09_grant_is_oldest : forall s t s', reachable s -> step s t = Some s' ->
  (gets_inside s s' (actor t) ->
     grants s' = grants s ++ [tick s' (actor t)] /\
     ((pendq s = actor t :: pendq s') \/ (pendq s = [] /\ pendq s' = [] /\ t = Request (actor t)))) /\
  (~ gets_inside s s' (actor t) -> grants s' = grants s).
Proof. exact grant_is_oldest. Qed.
Print Assumptions C09_grant_is_oldest.

Theorem C09_unsubscribe_safe : forall s a, reachable s -> ph s a = Waiting ->
  (In a (woken s) /\ ~ In a (waiting s)) \/ (In a (waiting s) /\ ~ In a (woken s)).
Proof. exact unsubscribe_safe. Qed.
Print Assumptions C09_unsubscribe_safe.

Theorem C09_enabled_by_phase : forall s a, reachable s ->
  match ph s a with
  | Idle => step s (Request a) <> None
  | Waiting => step s (DeliverForeign a) <> None
  | Inside n => step s (Request a) <> None /\ step s (Exit a) <> None
  end.
Proof. exact enabled_by_phase. Qed.
Print Assumptions C09_enabled_by_phase.

(* the hypotheses are satisfiable: three contenders, a re-entry, a cancelled waiter, hand-off *)
Example C09_ex_run :
  option_map project
    (run init [Request 0; Request 1; Request 2; Request 0; DeliverForeign 1; Exit 0; Exit 0])
  = Some (3, 0, [], [2]).
Proof. reflexivity. Qed.

Example C09_ex_reachable : exists s, reachable s /\ owner s = Some 2 /\ ph s 2 = Waiting.
Proof.
  assert (E : option_map (fun s => (owner s, ph s 2))
                (run init [Request 0; Request 1; Request 2; Request 0; DeliverForeign 1; Exit 0; Exit 0])
              = Some (Some 2, Waiting)) by reflexivity.
  destruct (run init _) as [s|] eqn:R; [|discriminate E].
  injection E as O P. exists s. split; [|split; assumption].
  eapply run_reachable; [apply reach_init | exact R].
Qed.

(** (A) the tie to /repo's current source: every function this property's models were transcribed from has, in the
    tree this run is checking, the normalised source it had when the models were validated (hashes regenerated from
    /repo into gen/Generated.v on every run; pins in gen/SourcePins.v).  A change to one of them invalidates the
    transcription until it is re-validated. *)
From UsimGen Require SourcePins Pin_C09.
Theorem C09_modelled_source_unchanged : forallb SourcePins.pin_ok Pin_C09.pins = true.
Proof. exact Pin_C09.src_unchanged. Qed.

(** ** link to the whole-program machine (LockLink.v): under an explicit relation [link] between the machine's object
    state and a protocol state, every atomic section of the machine's lock code is a protocol transition (by symbolic
    execution of [exec] for an arbitrary machine state, stack and continuation), so the protocol invariants hold of
    the machine's lock objects *)
From Usim Require LockLink.
Theorem C09_machine_mutex :
  forall o l wk s, LockLink.link o l wk s -> LockProto.reachable s ->
    forall a b n m, LockProto.ph s a = LockProto.Inside n -> LockProto.ph s b = LockProto.Inside m ->
      a = b /\ Machine.l_owner (Lib.get_lock o l) = Some a /\
      Machine.l_depth (Lib.get_lock o l) = BinInt.Z.of_nat n /\ 1 <= n.
Proof. exact LockLink.machine_mutex. Qed.
Theorem C09_machine_free_iff_idle :
  forall o l wk s, LockLink.link o l wk s -> LockProto.reachable s ->
    (Machine.l_owner (Lib.get_lock o l) = None <-> (forall a, LockProto.ph s a = LockProto.Idle)).
Proof. exact LockLink.machine_free_iff_idle. Qed.
Theorem C09_machine_exit_is_protocol_exit :
  forall o l wk s a n, LockLink.link o l wk s -> LockProtoProps.inv s -> LockProto.ph s a = LockProto.Inside (S n) ->
    exists s', LockProto.step s (LockProto.Exit a) = Some s' /\ LockLink.link (LockLink.sec_exit o l) l wk s'.
Proof. exact LockLink.sim_exit. Qed.
Print Assumptions C09_machine_mutex.
Print Assumptions C09_machine_exit_is_protocol_exit.
